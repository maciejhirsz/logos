(* Property C15 — bump advances to a valid position or panics without corrupting the lexer. *)
From Coq Require Import List NArith.
Import ListNotations.
From LogosV Require Import Runtime.Source Runtime.SourceProofs.
Local Open Scope N_scope.

Theorem C15_bump_spec : forall utf8 w p n, valid_pos utf8 w p ->
  match bump utf8 w p n with
  | BumpOk p' => p_end p' = p_end p + n /\ p_end p + n <= usize_max /\ p_start p' = p_start p /\ valid_pos utf8 w p'
  | BumpPanic p' => p' = p /\ (usize_max < p_end p + n \/ is_boundary utf8 w (p_end p + n) = false)
  end.
Proof. exact bump_spec. Qed.

Theorem C15_never_invalid : forall utf8 w p n, valid_pos utf8 w p ->
  forall p', bump utf8 w p n = BumpOk p' \/ bump utf8 w p n = BumpPanic p' -> valid_pos utf8 w p'.
Proof.
  intros utf8 w p n Hv p' H. pose proof (bump_spec utf8 w p n Hv) as S.
  destruct H as [H|H]; rewrite H in S.
  - apply S.
  - destruct S as [-> _]. exact Hv.
Qed.

(* regression lemmas: the pre-fix code is refuted (finding F3), twice.
   1. release build: the addition wraps, the assertion passes, start > end *)
Theorem C15_old_release_refuted :
  exists w p n p', valid_pos false w p /\ bump_old true false w p n = BumpOk p' /\ p_end p' < p_start p'.
Proof.
  exists [1;2;3;4], {| p_start := 3; p_end := 3 |}, (usize_max - 1), {| p_start := 3; p_end := 1 |}.
  repeat split; discriminate.
Qed.
(* 2. any build: a panicking bump leaves token_end out of range *)
Theorem C15_old_panic_corrupts :
  exists w p n p', valid_pos false w p /\ bump_old false false w p n = BumpPanic p' /\ N.of_nat (length w) < p_end p'.
Proof.
  exists [1;2;3;4], {| p_start := 0; p_end := 3 |}, 100, {| p_start := 0; p_end := 103 |}.
  repeat split; discriminate.
Qed.
