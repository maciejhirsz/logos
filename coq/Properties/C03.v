(* Property C03 — lexing terminates, makes progress and tiles the input. *)
From Coq Require Import List NArith FMapPositive.
From LogosV Require Import Engine.Model Engine.Cert Engine.CertProofs Engine.LexProofs Engine.Run Engine.Utf8Lex Engine.Prog Engine.StreamProg.
Import ListNotations.
Local Open Scope N_scope.

(* Iterating an ordinary lexer never runs out of fuel / gets stuck (finitely many items, then None
   with span len..len), and the yielded items together with the skipped regions are non-empty, abut,
   start at 0 and end at the input length. *)
Theorem C03_tiling : forall d g V R D,
  dfa_ok d = true -> sim_ok d g V D = true -> exact_ok d g V R D = true ->
  forall act fb (w : list byte), bytes_ok w ->
  (forall l s e, s < e -> e <= N.of_nat (length w) -> e + snd (act l s e) <= N.of_nat (length w)) ->
  (forall i, i <= N.of_nat (length w) -> i <= fb i /\ fb i <= N.of_nat (length w)) ->
  exists rs, lex_all (attempt_ref g) act fb w false = (rs, Finished (N.of_nat (length w)) (N.of_nat (length w)))
             /\ tiles rs 0 (N.of_nat (length w)).
Proof. exact lex_tiles. Qed.

(* None on every further call *)
Theorem C03_none_absorbing : forall d g V D,
  sim_ok d g V D = true ->
  forall act fb (w : list byte) fuel,
  next_from (attempt_ref g) act fb w false (S fuel) (N.of_nat (length w))
  = ([], Finished (N.of_nat (length w)) (N.of_nat (length w))).
Proof.
  intros d g V D Hsim act fb w fuel. cbn [next_from].
  rewrite (attempt_past_end d g V D Hsim w _ (N.le_refl _)). reflexivity.
Qed.

(* the hypothesis on find_boundary is satisfiable: find_boundary of str meets it (the callback oracles of the
   correspondence harness bump within the input, which the harness observes: Lexer::bump panics otherwise) *)
Theorem C03_fb_str_ok : forall (w : list byte) i,
  i <= N.of_nat (length w) -> i <= fb_str w i /\ fb_str w i <= N.of_nat (length w).
Proof. exact fb_str_ok. Qed.

(* the same for the program the code generator emits (translator K12, checker prog_ok) *)
Theorem C03_emitted_tiling : forall U g p,
  prog_ok g p = true -> wf_graph g = true ->
  forall d V R D, dfa_ok d = true -> sim_ok d g V D = true -> exact_ok d g V R D = true ->
  forall act fb (w : list byte), bytes_ok w ->
  (forall l s e, s < e -> e <= N.of_nat (length w) -> e + snd (act l s e) <= N.of_nat (length w)) ->
  (forall i, i <= N.of_nat (length w) -> i <= fb i /\ fb i <= N.of_nat (length w)) ->
  exists rs, lex_all (fun ip s r => fst (attempt_prog U p (PositiveMap.cardinal (g_states g)) ip s r)) act fb w false
             = (rs, Finished (N.of_nat (length w)) (N.of_nat (length w)))
             /\ tiles rs 0 (N.of_nat (length w)).
Proof.
  intros U g p Hp Hwf d V R D Hok Hsim Hex act fb w Hw Hact Hfb.
  rewrite (emitted_stream U g p Hp Hwf act fb w false Hw).
  exact (lex_tiles d g V R D Hok Hsim Hex act fb w Hw Hact Hfb).
Qed.
