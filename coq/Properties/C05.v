(* Property C05 — the default (unsafe) build never reads outside the source.
   What is proved is about indices (the model of Source::read and of the emitted per-state program);
   that `ptr.add(off)` dereferences what the index model says is the part of `unsafe` that a theorem
   about a model cannot exhibit — the real offsets are observed through the read hook (K3) and the
   real read function is compared with the model on a grid (K6). *)
From Coq Require Import List NArith.
From LogosV Require Import Runtime.Source Runtime.SourceProofs Engine.Model Engine.ExecOpt Engine.OptProofs Properties.C20.
Local Open Scope N_scope.

(* Source::read(offset) returns a chunk exactly when offset + size <= len without overflow, and then
   holds the bytes at that offset *)
Theorem C05_read_spec : forall (w : list N) (off sz : N),
  (off + sz <= usize_max /\ off + sz <= N.of_nat (length w) ->
     read w off sz = Some (firstn (N.to_nat sz) (skipn (N.to_nat off) w)) /\
     length (firstn (N.to_nat sz) (skipn (N.to_nat off) w)) = N.to_nat sz) /\
  (usize_max < off + sz \/ N.of_nat (length w) < off + sz -> read w off sz = None).
Proof. exact read_spec. Qed.

(* every read request of an attempt lies at or after the attempt start, and requests are ordered;
   together with C05_read_spec a request touches memory only when it lies inside the source *)
Theorem C05_requests_ordered : forall U g p start (rest : list byte) r tr,
  (1 <= U)%nat -> attempt_opt U g p start rest = (r, tr) ->
  exists hi, start <= hi /\ sorted_in start (offs tr) hi.
Proof.
  intros U g p start rest r tr HU H.
  destruct (C20_reads_monotone_linear U g p start rest r tr HU H) as (hi & Hle & Hs & _). exists hi. exact (conj Hle Hs).
Qed.
