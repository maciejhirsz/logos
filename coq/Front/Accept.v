(* Front/Accept.v — the panic-relevant decision skeleton of logos_codegen::generate (lib.rs:116-146,
   parser/definition.rs:103-111, parser/error_type.rs:39-47) over abstract inputs.
   [fixed = false] is the code as it was (findings F6, F7), [fixed = true] the repaired code. *)
From Coq Require Import List Bool.
Import ListNotations.

Inductive shape := Unit | Tuple (nfields : nat) | Named.
Inductive step_result := Fine | Error | Panic.

(* lib.rs:119-146: the kind of a variant *)
Definition variant_kind (fixed : bool) (s : shape) : step_result :=
  match s with
  | Unit => Fine
  | Tuple 1 => Fine
  | Tuple 0 => if fixed then Error else Panic      (* fields.unnamed.first_mut().expect("Already checked len") *)
  | Tuple _ => Error                                (* error recorded, first field used *)
  | Named => Error
  end.

(* definition.rs:103-111 / error_type.rs:39-47: a second `callback = ..`; `join` is Span::join,
   which answers None on stable toolchains inside a proc macro *)
Definition duplicate_callback (fixed : bool) (join_is_some : bool) : step_result :=
  if join_is_some then Error else if fixed then Error else Panic.   (* span.join(name.span()).unwrap() *)

Inductive event := EVariant (s : shape) | EDupCallback (join_is_some : bool) | EOther (ok : bool).

Definition step (fixed : bool) (e : event) : step_result :=
  match e with
  | EVariant s => variant_kind fixed s
  | EDupCallback j => duplicate_callback fixed j
  | EOther ok => if ok then Fine else Error
  end.

Inductive outcome := Accepted | Rejected | Panicked.
Fixpoint run (fixed : bool) (es : list event) (errs : bool) : outcome :=
  match es with
  | [] => if errs then Rejected else Accepted
  | e :: r => match step fixed e with
              | Fine => run fixed r errs
              | Error => run fixed r true
              | Panic => Panicked
              end
  end.

Lemma step_never_panics e : step true e <> Panic.
Proof. destruct e as [[|[|[|n]]|]|[]|[]]; discriminate. Qed.

Definition step_reports (e : event) : bool := match step true e with Fine => false | _ => true end.
Lemma run_fixed : forall es errs,
  run true es errs = if errs || existsb step_reports es then Rejected else Accepted.
Proof.
  induction es as [|e es IH]; intros errs; cbn [run existsb]; [rewrite orb_false_r; reflexivity|].
  unfold step_reports at 1. destruct (step true e) eqn:E.
  - apply IH.
  - rewrite IH, orb_true_r. reflexivity.
  - destruct (step_never_panics e E).
Qed.

Theorem never_panics : forall es errs, run true es errs <> Panicked.
Proof. intros es errs. rewrite run_fixed. destruct (errs || existsb step_reports es); discriminate. Qed.
