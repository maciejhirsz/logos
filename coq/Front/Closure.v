(* Front/Closure.v — which tokens Parser::parse_callback takes as the body of an inline callback `|arg| body`
   (logos-codegen/src/parser/mod.rs).  Token trees are atoms or delimited groups; `rest` is everything after
   the second `|`.  A body that is exactly one braced block stands for the statements inside it; anything else
   is the expression as written.  [body_old] is the selection as it was (finding F12): a leading group of any
   kind was taken as the whole body and the tokens after it were dropped. *)
From Coq Require Import List NArith.
Import ListNotations.

Inductive delim := Paren | Brace | Bracket | NoDelim.
Inductive tt := TAtom (n : N) | TGroup (d : delim) (inner : list tt).

Definition body_of (rest : list tt) : list tt :=
  match rest with
  | [TGroup Brace inner] => inner
  | _ => rest
  end.

Definition body_old (rest : list tt) : list tt :=
  match rest with
  | TGroup _ inner :: _ => inner
  | _ => rest
  end.

(* the closure body as Rust reads it: a single braced block, or the expression itself *)
Definition is_block (rest : list tt) : bool :=
  match rest with [TGroup Brace _] => true | _ => false end.

Lemma body_of_expression rest : is_block rest = false -> body_of rest = rest.
Proof.
  destruct rest as [|t r]; [reflexivity|]. destruct t as [n|d inner]; [reflexivity|].
  destruct d; try reflexivity. destruct r; [discriminate|reflexivity].
Qed.

Lemma body_of_block inner : body_of [TGroup Brace inner] = inner.
Proof. reflexivity. Qed.
