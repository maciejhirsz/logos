(* Base/Sorted.v — "sorted + permutation => unique": the algorithm-independent reason why sorting
   what was collected from a hash container gives an output that does not depend on the iteration
   order (C16). *)
From Coq Require Import List NArith Permutation Sorting.Sorted.
Import ListNotations.
Local Open Scope N_scope.

Theorem sorted_perm_unique {A} (R : A -> A -> Prop) :
  (forall a b, R a b -> R b a -> a = b) ->
  forall l1 l2, StronglySorted R l1 -> StronglySorted R l2 -> Permutation l1 l2 -> l1 = l2.
Proof.
  intros Hanti l1 l2 S1. revert l2. induction S1 as [|a l1 S1 IH F1]; intros l2 S2 P.
  - symmetry. apply Permutation_nil. exact P.
  - destruct S2 as [|b l2 S2 F2]; [apply Permutation_sym, Permutation_nil_cons in P; contradiction|].
    assert (Hab : a = b).     (* the heads are each other's lower bound *)
    { rewrite Forall_forall in F1, F2.
      destruct (Permutation_in a P (or_introl eq_refl)) as [E|Ia]; [symmetry; exact E|].
      destruct (Permutation_in b (Permutation_sym P) (or_introl eq_refl)) as [E|Ib]; [exact E|].
      exact (Hanti a b (F1 b Ib) (F2 a Ia)). }
    subst b. f_equal. exact (IH l2 S2 (Permutation_cons_inv P)).
Qed.

Section Keyed.
  Variable A : Type.
  Variable key : A -> N.
  Definition klt (a b : A) : Prop := key a < key b.
End Keyed.

(* ids handed out in first-use order over a deterministic traversal are deterministic: modelled as a
   function of the traversal list only (Generator::add_test_to_lut) *)
Fixpoint first_use_ids (seen : list N) (uses : list N) : list (N * N) :=
  match uses with
  | [] => []
  | u :: r => if existsb (N.eqb u) seen then first_use_ids seen r
              else (u, N.of_nat (length seen)) :: first_use_ids (seen ++ [u]) r
  end.
