(* Engine/Rename.v — two definitions that list the same leaves in a different order: the graph of one
   with its leaf numbers translated is compared with the graph of the other by the bisimulation
   checker gsim_ok; every walk of the generated code then ends the same way up to that translation.
   Used where attribute items that number the leaves are permuted (C18). *)
From Coq Require Import List NArith FMapPositive.
From LogosV Require Import Engine.Model Engine.GsimProofs.
Local Open Scope N_scope.

Definition rename_state (f : leaf -> leaf) (st : gstate) : gstate :=
  {| g_early := option_map f (g_early st); g_accept := option_map f (g_accept st);
     g_edges := g_edges st; g_eoi := g_eoi st |}.
Definition rename_graph (f : leaf -> leaf) (g : graph) : graph :=
  {| g_states := PositiveMap.map (rename_state f) (g_states g); g_root := g_root g |}.
Definition rename_ctx (f : leaf -> leaf) (c : ctx) : ctx := option_map (fun p => (f (fst p), snd p)) c.
Definition rename_stop (f : leaf -> leaf) (r : stop) : stop :=
  match r with Acted c o => Acted (rename_ctx f c) o | x => x end.

(* the translation as the checker receives it: leaf i becomes the i-th entry of the list *)
Definition leaf_map (m : list leaf) (l : leaf) : leaf := nth (N.to_nat l) m l.

Lemma gfind_rename f g s : gfind (rename_graph f g) s = option_map (rename_state f) (gfind g s).
Proof. unfold gfind, rename_graph. cbn [g_states]. unfold PositiveMap.map. apply PositiveMap.gmapi. Qed.

Lemma record_rename f st off c : record (rename_state f st) off (rename_ctx f c) = rename_ctx f (record st off c).
Proof.
  unfold record, rename_state. cbn [g_early g_accept].
  destruct (g_early st); [reflexivity|]. destruct (g_accept st); reflexivity.
Qed.

(* in the shape of the hypothesis of GsimProofs Section Bisim, with eq as the relation of states *)
Lemma rename_step f g s1 s2 : s1 = s2 -> StepRel (rename_graph f g) g eq (rename_ctx f) s1 s2.
Proof.
  intros ->. unfold StepRel. rewrite gfind_rename. destruct (gfind g s2) as [st|]; [|exact I].
  split; [intros off c; apply record_rename|]. split; [reflexivity|].
  unfold OptRel. cbn [rename_state g_edges g_eoi].
  split; [intros x _; destruct (edge_first (g_edges st) x)|destruct (g_eoi st)]; trivial.
Qed.
