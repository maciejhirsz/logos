(* Front/TypeParams.v — the part of logos-codegen/src/parser/type_params.rs that finding F10 is about:
   #[logos(type T = Type)] and #[logos(lifetime = 'a)] items of a generic enum.  When the source
   lifetime stays implicit, every lifetime of a concrete type is rewritten to 's; whether it stays
   implicit is known only after ALL items have been read.
   A type is represented by the list of lifetime names it mentions (0 stands for 's). *)
From Coq Require Import List NArith Bool.
Import ListNotations.
Local Open Scope N_scope.

Definition ty := list N.
Definition fix_ty (t : ty) : ty := map (fun _ => 0) t.

Inductive item := ISetType (name : N) (t : ty) | ISetLifetime (l : N) | IOther.

Record st := { implicit : bool; types : list (N * ty) }.
Definition st0 : st := {| implicit := true; types := [] |}.

(* as it was: set_type rewrites at once, looking at the items seen so far *)
Definition step_old (s : st) (i : item) : st :=
  match i with
  | ISetType n t => {| implicit := implicit s; types := types s ++ [(n, if implicit s then fix_ty t else t)] |}
  | ISetLifetime _ => {| implicit := false; types := types s |}
  | IOther => s
  end.
Definition generics_old (s : st) : list (N * ty) := types s.

(* after the repair: set_type stores the type, generics() rewrites when it is used *)
Definition step (s : st) (i : item) : st :=
  match i with
  | ISetType n t => {| implicit := implicit s; types := types s ++ [(n, t)] |}
  | ISetLifetime _ => {| implicit := false; types := types s |}
  | IOther => s
  end.
Definition generics (s : st) : list (N * ty) :=
  map (fun nt => (fst nt, if implicit s then fix_ty (snd nt) else snd nt)) (types s).

Definition run (l : list item) : st := fold_left step l st0.
Definition run_old (l : list item) : st := fold_left step_old l st0.

Definition has_lifetime (l : list item) : bool :=
  existsb (fun i => match i with ISetLifetime _ => true | _ => false end) l.
Definition type_items (l : list item) : list (N * ty) :=
  flat_map (fun i => match i with ISetType n t => [(n, t)] | _ => [] end) l.

Lemma run_spec : forall l s,
  implicit (fold_left step l s) = implicit s && negb (has_lifetime l) /\
  types (fold_left step l s) = types s ++ type_items l.
Proof.
  induction l as [|i l IH]; intros s; cbn [fold_left].
  - cbn. rewrite andb_true_r, app_nil_r. split; reflexivity.
  - destruct (IH (step s i)) as [-> ->]. destruct i as [n t| |]; cbn [step implicit types].
    + rewrite <- app_assoc. split; reflexivity.
    + cbn [has_lifetime existsb orb negb]. rewrite andb_false_r. split; reflexivity.
    + split; reflexivity.
Qed.

(* what the repaired code computes depends on the items only through: is there a lifetime item, and
   the type items in their order *)
Theorem generics_spec l :
  generics (run l) = map (fun nt => (fst nt, if has_lifetime l then snd nt else fix_ty (snd nt))) (type_items l).
Proof.
  unfold generics, run. destruct (run_spec l st0) as [H1 H2]. rewrite H1, H2. cbn [implicit types st0 andb app].
  destruct (has_lifetime l); reflexivity.
Qed.
