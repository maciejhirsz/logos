(* Engine/StreamProg.v — the program that the code generator EMITS (Engine/Prog.v, parsed from the generated
   code by the translator K12) under the lexing loop: by Engine/ProgProofs.v (attempt_prog_is_ref) lexing with
   it is lexing with the reference semantics of its graph, in one go (emitted_stream) or through a schedule
   of growing buffers (chunked_with, chunked_emitted).  The statements of C03, C04, C07 and C12 about the
   emitted program are the reference theorems rewritten by these. *)
From Coq Require Import List NArith FMapPositive.
From LogosV Require Import Engine.Model Engine.Cert Engine.CertProofs Engine.Prog Engine.LexProofs
  Engine.ProgProofs Engine.StreamProofs.
Import ListNotations.
Local Open Scope N_scope.

Section With.
  Variable attempt : bool -> N -> list byte -> stop.
  Variable act : leaf -> N -> N -> action * N.
  Variable fbw : N -> N.
  Variable w : list byte.
  Variable fbk : nat -> N -> N.

  (* the schedule of Engine/StreamProofs.v [chunked], run with any attempt function *)
  Fixpoint chunked_with (ks : list nat) (start : N) : list region * outcome :=
    match ks with
    | [] => lex_from attempt act fbw w false (S (S (length w))) start
    | k :: ks' =>
        match lex_from attempt act (fbk k) (firstn k w) true (S (S (length (firstn k w)))) start with
        | (rs, Finished s _) => let (rs', fin) := chunked_with ks' s in (rs ++ rs', fin)
        | (rs, o) => (rs, o)
        end
    end.
End With.

Section Emitted.
  Variables (U : nat) (g : graph) (p : prog).
  Hypothesis Hprog : prog_ok g p = true.
  Hypothesis Hwf : wf_graph g = true.

  Lemma lex_from_emitted act fb (u : list byte) ip : bytes_ok u -> forall fuel start,
    lex_from (fun ip s r => fst (attempt_prog U p (PositiveMap.cardinal (g_states g)) ip s r)) act fb u ip fuel start
    = lex_from (attempt_ref g) act fb u ip fuel start.
  Proof.
    (* the two attempt functions agree on the suffixes of a bytes_ok input only, not as functions: hence through
       lex_from_equiv and not by rewriting *)
    intros Hu. apply lex_from_equiv. intros start.
    rewrite (attempt_prog_is_ref U g p ip start _ Hprog Hwf (bytes_ok_skipn _ u Hu)).
    apply att_equiv_refl.
  Qed.

  (* C06 for whole streams: every input, callback oracle, boundary function and mode *)
  Theorem emitted_stream act fb (w : list byte) ip : bytes_ok w ->
    lex_all (fun ip s r => fst (attempt_prog U p (PositiveMap.cardinal (g_states g)) ip s r)) act fb w ip
    = lex_all (attempt_ref g) act fb w ip.
  Proof. intros Hw. apply lex_from_emitted, Hw. Qed.

  Lemma chunked_emitted act fbw (w : list byte) fbk : bytes_ok w -> forall ks start,
    chunked_with (fun ip s r => fst (attempt_prog U p (PositiveMap.cardinal (g_states g)) ip s r)) act fbw w fbk ks start
    = chunked g act fbw w fbk ks start.
  Proof.
    intros Hw. induction ks as [|k ks IH]; intros start; cbn [chunked_with chunked].
    - apply lex_from_emitted. exact Hw.
    - rewrite (lex_from_emitted act (fbk k) (firstn k w) true (bytes_ok_firstn k w Hw)).
      destruct (lex_from (attempt_ref g) act (fbk k) (firstn k w) true (S (S (length (firstn k w)))) start)
        as [rs [it e|s e|]]; [reflexivity| |reflexivity].
      rewrite IH. reflexivity.
  Qed.
End Emitted.
