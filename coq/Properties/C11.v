(* Property C11 — subpattern references behave as scoped textual inclusion. *)
From Coq Require Import List NArith.
From LogosV Require Import Front.Subpat Engine.Model Engine.CertProofs Engine.SpecProofs Engine.DfaEquiv.
Local Open Scope N_scope.

(* text without any (?&name) is unchanged *)
Theorem C11_subst_group_free : forall env s fuel, (length s <= fuel)%nat -> group_free s -> subst fuel env s = Some s.
Proof.
  intros env. induction s as [|c r IH]; intros fuel Hf Hg.
  - destruct fuel; reflexivity.
  - destruct fuel as [|fuel]; [inversion Hf|]. destruct Hg as [Hm Hr].
    cbn [subst]. rewrite Hm, IH; [reflexivity|exact (le_S_n _ _ Hf)|exact Hr].
Qed.
(* text before a reference is copied byte by byte *)
Theorem C11_subst_prefix_copied : forall env c r fuel, match_group (c :: r) = None ->
  subst (S fuel) env (c :: r) = option_map (cons c) (subst fuel env r).
Proof. intros env c r fuel Hm. cbn [subst]. rewrite Hm. reflexivity. Qed.
(* a reference to a defined name is replaced by the stored text, nothing else *)
Theorem C11_subst_at_group : forall env name rest t fuel,
  match_group (40 :: 63 :: 38 :: name ++ 41 :: rest) = Some (name, rest) -> lookup env name = Some t ->
  subst (S fuel) env (40 :: 63 :: 38 :: name ++ 41 :: rest) =
  match subst fuel env rest with Some out => Some (t ++ out) | None => None end.
Proof. intros env name rest t fuel Hm Hl. cbn [subst]. rewrite Hm, Hl. reflexivity. Qed.
(* a reference to an undefined name fails *)
Theorem C11_subst_undefined : forall env name rest fuel,
  match_group (40 :: 63 :: 38 :: name ++ 41 :: rest) = Some (name, rest) -> lookup env name = None ->
  subst (S fuel) env (40 :: 63 :: 38 :: name ++ 41 :: rest) = None.
Proof. intros env name rest fuel Hm Hl. cbn [subst]. rewrite Hm, Hl. reflexivity. Qed.
(* equivalence with the independently inlined pattern is decided by the language-equality certificate *)
Theorem C11_bisim_sound : forall d1 l1 d2 l2 R, bisim_ok d1 l1 d2 l2 R = true ->
  forall (rest : list byte) j, bytes_ok rest ->
  (In l1 (dmatch d1 (mstate d1 (d_start d1) rest j)) <-> In l2 (dmatch d2 (mstate d2 (d_start d2) rest j))).
Proof. exact bisim_sound. Qed.
