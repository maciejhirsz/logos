(* Engine/BuildProofs.v — the graph construction of Engine/GraphBuild.v (the model of Graph::new up to
   de-duplication) is correct for every raw DFA that meets the decidable side conditions [build_side]:
   the match attempt of the generated code on [build d] computes the DFA-level scan, by the simulation
   argument of Engine/CertProofs.v with the identity pairing. *)
From Coq Require Import List NArith Bool FMapPositive Lia.
From LogosV Require Import Engine.Model Engine.Cert Engine.GraphBuild Engine.CertProofs Engine.SpecProofs.
Import ListNotations.
Local Open Scope N_scope.

Lemma in_qs d q : In q (qs d) <-> exists st, PositiveMap.find q (d_states d) = Some st.
Proof. apply in_keys_elements. Qed.

Lemma fold_states_find {A} (P : qid -> bool) (f : qid -> A) (l : list qid) : forall m0 q,
  PositiveMap.find q (fold_left (fun m x => if P x then PositiveMap.add x (f x) m else m) l m0)
  = if existsb (Pos.eqb q) l && P q then Some (f q) else PositiveMap.find q m0.
Proof.
  induction l as [|x l IH]; intros m0 q; cbn [fold_left existsb]; [reflexivity|].
  rewrite IH. destruct (Pos.eqb_spec q x) as [->|Hne].
  - destruct (P x).
    + rewrite PositiveMap.gss. destruct (existsb (Pos.eqb x) l); reflexivity.
    + rewrite andb_false_r. reflexivity.
  - destruct (P x); [|reflexivity].
    rewrite PositiveMap.gso by exact Hne. reflexivity.
Qed.

Lemma fold_add_find {A} (f : qid -> A) (l : list qid) m0 q :
  PositiveMap.find q (fold_left (fun m x => PositiveMap.add x (f x) m) l m0)
  = if existsb (Pos.eqb q) l then Some (f q) else PositiveMap.find q m0.
Proof. rewrite <- (andb_true_r (existsb _ l)). exact (fold_states_find (fun _ => true) f l m0 q). Qed.

Lemma set_of_spec l t : pmem t (set_of l) = true <-> In t l.
Proof.
  unfold pmem, set_of. rewrite fold_add_find, PositiveMap.gempty, <- existsb_eqb_in.
  destruct (existsb (Pos.eqb t) l); reflexivity.
Qed.

Lemma nodup_acc_mem (t : qid) : forall l seen,
  existsb (Pos.eqb t) (nodup_acc l seen) = existsb (Pos.eqb t) l || existsb (Pos.eqb t) seen.
Proof.
  induction l as [|x l IH]; intros seen; cbn [nodup_acc existsb].
  - cbn [orb]. apply eq_iff_eq_true. rewrite !existsb_eqb_in. symmetry. apply in_rev.
  - destruct (existsb (Pos.eqb x) seen) eqn:Es; rewrite IH.
    + destruct (Pos.eqb_spec t x) as [->|Hne]; [|reflexivity].
      rewrite Es. rewrite orb_true_r. reflexivity.
    + cbn [existsb]. destruct (Pos.eqb t x); [rewrite orb_true_r; reflexivity|reflexivity].
Qed.

Lemma nodup_acc_In (t : qid) l : In t (nodup_acc l []) <-> In t l.
Proof. rewrite <- !existsb_eqb_in, nodup_acc_mem. rewrite orb_false_r. reflexivity. Qed.

Lemma nodup_acc_nodup : forall l seen, NoDup seen -> NoDup (nodup_acc l seen).
Proof.
  induction l as [|x l IH]; intros seen Hs; cbn [nodup_acc]; [exact (NoDup_rev Hs)|].
  destruct (existsb (Pos.eqb x) seen) eqn:E; [exact (IH seen Hs)|].
  apply IH. constructor; [|exact Hs]. rewrite <- existsb_eqb_in, E. discriminate.
Qed.

Lemma is_some_true {A} (o : option A) : is_some o = true <-> exists x, o = Some x.
Proof. destruct o as [x|]; split; [eauto|reflexivity|discriminate|intros [y H]; discriminate H]. Qed.

Lemma is_some_false {A} (o : option A) : is_some o = false -> o = None.
Proof. destruct o; [discriminate|reflexivity]. Qed.

Section Passes.
  Variable d : dfa.

  Lemma is_dead_true q : is_dead d q = true <-> q = d_dead d.
  Proof. apply Pos.eqb_eq. Qed.

  Lemma acc0_some q l : acc0 d q = Some l <-> win d q = WOne l.
  Proof. unfold acc0, wopt. destruct (win d q); split; congruence. Qed.

  Lemma early_some q l : early d q = Some l ->
    forall b, byte_ok b -> target d q b <> d_dead d /\ acc0 d (target d q b) = Some l.
  Proof.
    unfold early. destruct (can_error d q) eqn:Ece; [discriminate|].
    destruct (acc0 d (target d q 0)) as [l0|]; [|discriminate].
    destruct (forallb _ (children d q)) eqn:Ef; [|discriminate].
    intros E b Hb. injection E as <-. split.
    - intros Ed. apply not_true_iff_false in Ece. apply Ece. apply existsb_bytes.
      exists b. split; [exact Hb|apply is_dead_true; exact Ed].
    - apply leaf_eqb_eq. rewrite forallb_forall in Ef. apply Ef.
      apply in_or_app. left. apply in_map. exact (proj2 (in_all_bytes b) Hb).
  Qed.

  Lemma bad_spec t : pmem t (bad_set d) = true <->
    exists p u, In p (qs d) /\ unit_ok u /\ dstep d p u = t /\ leaf_eqb (early d p) (acc0 d t) = false.
  Proof.
    unfold bad_set. rewrite set_of_spec. unfold bad_list. rewrite in_flat_map. split.
    - intros [p [Hp H]]. destruct (proj1 (in_flat_map _ _ _) H) as [u [Hu H1]]. destruct (leaf_eqb (early d p) (acc0 d (dstep d p u))) eqn:E; [destruct H1|].
      destruct H1 as [<-|[]]. exists p, u. exact (conj Hp (conj (proj1 (in_all_units u) Hu) (conj eq_refl E))).
    - intros [p [u [Hp [Hu [Ht E]]]]]. exists p. split; [exact Hp|]. apply in_flat_map. exists u.
      split; [exact (proj2 (in_all_units u) Hu)|]. rewrite Ht, E. left. reflexivity.
  Qed.

  Lemma build_side_spec : build_side d = true ->
    dfa_ok d = true /\ closed_targets d = true /\ eoi_consistent d = true /\ eoi_terminal d = true
    /\ reach_closed d (bad_set d) (reach_set d (bad_set d)) = true.
  Proof.
    unfold build_side. intros H. apply andb_prop in H as [H H5]. apply andb_prop in H as [H H4].
    apply andb_prop in H as [H H3]. apply andb_prop in H as [H1 H2]. auto.
  Qed.

  Lemma closed_targets_spec : closed_targets d = true ->
    In (d_start d) (qs d) /\
    forall q u, In q (qs d) -> unit_ok u -> dstep d q u = d_dead d \/ In (dstep d q u) (qs d).
  Proof.
    unfold closed_targets. intros H. apply andb_prop in H as [H Hs]. split; [apply in_qs, is_some_true, Hs|].
    intros q u Hq Hu. pose proof (proj1 (forallb_units _) (proj1 (forallb_forall _ _) H q Hq) u Hu) as H1.
    apply orb_prop in H1 as [H1|H1]; [left; apply is_dead_true; exact H1|right; apply in_qs, is_some_true, H1].
  Qed.

  Lemma eoi_consistent_spec : eoi_consistent d = true ->
    forall q l, In q (qs d) -> early d q = Some l -> win d (etarget d q) = WOne l.
  Proof.
    unfold eoi_consistent. rewrite forallb_forall. intros H q l Hq He. specialize (H q Hq).
    rewrite He in H. apply win_is_true. exact H.
  Qed.

  Lemma eoi_terminal_spec : eoi_terminal d = true ->
    forall q u, In q (qs d) -> unit_ok u -> dstep d (etarget d q) u = d_dead d.
  Proof.
    unfold eoi_terminal. rewrite forallb_forall. intros H q u Hq Hu. apply is_dead_true.
    exact (proj1 (forallb_units _) (H q Hq) u Hu).
  Qed.

  Section Sets.
    Variables B R : pset.

    Lemma keep_target_true t : keep_target d R t = true <-> t <> d_dead d /\ pmem t R = true.
    Proof.
      unfold keep_target. apply andb_iff; [|reflexivity]. rewrite negb_true_iff. apply Pos.eqb_neq.
    Qed.

    Lemma keep_target_false t : keep_target d R t = false <-> t = d_dead d \/ pmem t R = false.
    Proof. unfold keep_target. rewrite andb_false_iff, negb_false_iff, is_dead_true. reflexivity. Qed.

    Lemma acc1_sub q l : acc1 d B q = Some l -> acc0 d q = Some l.
    Proof. unfold acc1. destruct (acc0 d q) as [l0|]; [|discriminate]. destruct (pmem q B); congruence. Qed.

    (* [unfold] in the goal, as everywhere in this file: a cast on a hypothesis makes the kernel unfold the body
       first and evaluate the sweeps inside [early] *)
    Lemma marked_false p : marked d B p = false -> early d p = None /\ acc1 d B p = None /\ p <> d_start d.
    Proof.
      unfold marked. intros H. apply orb_false_elim in H as [H H3]. apply orb_false_elim in H as [H1 H2].
      split; [exact (is_some_false _ H1)|]. split; [exact (is_some_false _ H2)|apply Pos.eqb_neq; exact H3].
    Qed.

    Lemma reach_closed_spec : reach_closed d B R = true -> forall p, In p (qs d) -> pmem p R = false ->
      marked d B p = false /\ forall u, unit_ok u -> keep_target d R (dstep d p u) = false.
    Proof.
      unfold reach_closed. rewrite forallb_forall. intros H p Hp Hr.
      destruct (orb_prop _ _ (H p Hp)) as [E|E]; [congruence|]. apply andb_prop in E as [Hm He].
      apply negb_true_iff in Hm, He. split; [exact Hm|].
      intros u Hu. apply not_true_iff_false. intros Hk. apply not_true_iff_false in He. apply He.
      apply existsb_units. exists u. split; [exact Hu|exact Hk].
    Qed.

    Lemma targets_spec q t :
      In t (targets d R q) <-> exists b, byte_ok b /\ target d q b = t /\ keep_target d R t = true.
    Proof.
      unfold targets. rewrite nodup_acc_In, filter_In, in_map_iff. split.
      - intros [[b [E Hb]] Hk]. exists b. exact (conj (proj1 (in_all_bytes b) Hb) (conj E Hk)).
      - intros [b [Hb [E Hk]]]. split; [exists b; exact (conj E (proj2 (in_all_bytes b) Hb))|exact Hk].
    Qed.

    Lemma targets_nodup q : NoDup (targets d R q).
    Proof. apply nodup_acc_nodup. constructor. Qed.

    Lemma in_class q t b : byte_ok b -> in_ranges b (class_of d q t) = Pos.eqb (target d q b) t.
    Proof. exact (in_ranges_filter_bytes _ b). Qed.

    Lemma edge_first_map q b : byte_ok b -> forall ts,
      edge_first (map (fun t => (class_of d q t, t)) ts) b
      = if existsb (Pos.eqb (target d q b)) ts then Some (target d q b) else None.
    Proof.
      intros Hb. induction ts as [|t ts IH]; cbn [map edge_first existsb]; [reflexivity|].
      rewrite (in_class q t b Hb). destruct (Pos.eqb_spec (target d q b) t) as [->|Hne]; [reflexivity|exact IH].
    Qed.

    Lemma count_class q b : byte_ok b -> forall ts, NoDup ts ->
      count_edges (map (fun t => (class_of d q t, t)) ts) b = if existsb (Pos.eqb (target d q b)) ts then 1%nat else 0%nat.
    Proof.
      intros Hb. induction ts as [|t ts IH]; intros Hn; cbn [map count_edges existsb]; [reflexivity|].
      apply NoDup_cons_iff in Hn as [Ht Hn]. rewrite <- existsb_eqb_in in Ht. apply not_true_is_false in Ht.
      rewrite (IH Hn), (in_class q t b Hb). destruct (Pos.eqb_spec (target d q b) t) as [->|Hne]; [|reflexivity].
      rewrite Ht. reflexivity.
    Qed.

    Lemma bstate_byte q b : byte_ok b ->
      edge_first (g_edges (bstate d B R q)) b
      = if keep_target d R (dstep d q (UB b)) then Some (dstep d q (UB b)) else None.
    Proof.
      intros Hb. cbn [bstate g_edges]. unfold edges. rewrite (edge_first_map q b Hb).
      replace (existsb (Pos.eqb (target d q b)) (targets d R q)) with (keep_target d R (target d q b)); [reflexivity|].
      apply eq_iff_eq_true. rewrite existsb_eqb_in, targets_spec. split.
      - intros H. exists b. auto.
      - intros [_ [_ [_ H]]]. exact H.
    Qed.

    (* in this orientation: the other way round, the conversion unfolds [early] on both sides and compares the
       two sweeps over all bytes *)
    Lemma bstate_early q : g_early (bstate d B R q) = early d q.
    Proof. reflexivity. Qed.

    Lemma bstate_targets q : map snd (g_edges (bstate d B R q)) = targets d R q.
    Proof. cbn [bstate g_edges]. unfold edges. rewrite map_map. apply map_id. Qed.

    Lemma bstate_eoi q :
      g_eoi (bstate d B R q) = if keep_target d R (dstep d q UEoi) then Some (dstep d q UEoi) else None.
    Proof. reflexivity. Qed.

    Lemma gfind_build_with s st :
      gfind (build_with d B R) s = Some st <-> In s (qs d) /\ pmem s R = true /\ st = bstate d B R s.
    Proof.
      unfold gfind, build_with. cbn [g_states].
      rewrite fold_states_find, PositiveMap.gempty.
      rewrite <- existsb_eqb_in, <- and_assoc, <- andb_true_iff.
      destruct (existsb (Pos.eqb s) (qs d) && pmem s R); split.
      - intros E. injection E as <-. split; reflexivity.
      - intros [_ ->]. reflexivity.
      - discriminate.
      - intros [H _]. discriminate H.
    Qed.
  End Sets.
End Passes.

Section Correct.
  Variable d : dfa.
  Hypothesis Hside : build_side d = true.

  Let B := bad_set d.
  Let R := reach_set d B.
  Let g := build d.

  Lemma side_dfa : dfa_ok d = true.
  Proof. exact (proj1 (build_side_spec d Hside)). Qed.
  Lemma side_closed : closed_targets d = true.
  Proof. exact (proj1 (proj2 (build_side_spec d Hside))). Qed.
  Lemma side_eoic : eoi_consistent d = true.
  Proof. exact (proj1 (proj2 (proj2 (build_side_spec d Hside)))). Qed.
  Lemma side_eoit : eoi_terminal d = true.
  Proof. exact (proj1 (proj2 (proj2 (proj2 (build_side_spec d Hside))))). Qed.
  Lemma side_reach : reach_closed d B R = true.
  Proof. exact (proj2 (proj2 (proj2 (proj2 (build_side_spec d Hside))))). Qed.

  Lemma dead_absent : PositiveMap.find (d_dead d) (d_states d) = None.
  Proof. exact (dfa_dead_absent d side_dfa). Qed.
  Lemma dead_not_live : ~ Live d (d_dead d).
  Proof. exact (absent_not_live d _ dead_absent dead_absent). Qed.

  Lemma not_in_qs_dead_step q u : ~ In q (qs d) -> dstep d q u = d_dead d.
  Proof.
    intros H. apply absent_step. destruct (PositiveMap.find q (d_states d)) as [st|] eqn:E; [|reflexivity].
    exfalso. apply H. apply in_qs. exists st. exact E.
  Qed.

  Lemma acc0_none q : acc0 d q = None -> win d q = WNone.
  Proof.
    pose proof (dfa_no_tie d side_dfa q) as Ht. unfold acc0, wopt.
    destruct (win d q); [reflexivity|discriminate|destruct (Ht eq_refl)].
  Qed.

  Lemma step_closed q u : In q (qs d) -> unit_ok u -> dstep d q u = d_dead d \/ In (dstep d q u) (qs d).
  Proof. apply closed_targets_spec, side_closed. Qed.

  Lemma unreached p : In p (qs d) -> pmem p R = false ->
    early d p = None /\ acc1 d B p = None /\ p <> d_start d /\
    forall u, unit_ok u -> keep_target d R (dstep d p u) = false.
  Proof.
    intros Hp Hr. destruct (reach_closed_spec d B R side_reach p Hp Hr) as [Hm Hc].
    destruct (marked_false d B p Hm) as [H1 [H2 H3]]. auto.
  Qed.

  Lemma early_sound q l : In q (qs d) -> early d q = Some l -> forall u, unit_ok u -> win d (dstep d q u) = WOne l.
  Proof.
    intros Hq He [b|] Hu.
    - apply acc0_some. exact (proj2 (early_some d q l He b Hu)).
    - exact (eoi_consistent_spec d side_eoic q l Hq He).
  Qed.

  (* pass 3 takes no late accept from the child of a parent that is not early, so no pending match is lost *)
  Lemma acc1_kept p u t : In p (qs d) -> unit_ok u -> dstep d p u = t -> early d p = None -> acc1 d B t = acc0 d t.
  Proof.
    intros Hp Hu Ht He. unfold acc1. destruct (acc0 d t) as [l|] eqn:E; [|reflexivity].
    replace (pmem t B) with true; [reflexivity|]. symmetry. apply bad_spec.
    exists p, u. rewrite He, E. auto.
  Qed.

  Lemma late_none q u : In q (qs d) -> unit_ok u -> early d q = None ->
    acc1 d B (dstep d q u) = None -> win d (dstep d q u) = WNone.
  Proof. intros Hq Hu Ee Ea. apply acc0_none. rewrite <- (acc1_kept q u _ Hq Hu eq_refl Ee). exact Ea. Qed.

  Lemma dropped_step q u : In q (qs d) -> unit_ok u -> keep_target d R (dstep d q u) = false ->
    dstep d q u = d_dead d \/ In (dstep d q u) (qs d) /\ pmem (dstep d q u) R = false.
  Proof.
    intros Hq Hu Hk. apply keep_target_false in Hk as [E|Hr]; [left; exact E|].
    destruct (step_closed q u Hq Hu) as [E|Ht]; [left; exact E|right; exact (conj Ht Hr)].
  Qed.

  Lemma dropped_no_win q u : In q (qs d) -> unit_ok u -> keep_target d R (dstep d q u) = false ->
    win d (dstep d q u) = WNone \/ early d q <> None.
  Proof.
    intros Hq Hu Hk.
    destruct (early d q) as [l|] eqn:Ee; [right; discriminate|left].
    destruct (dropped_step q u Hq Hu Hk) as [E|[Ht Hr]].
    - rewrite E. apply win_nomatch, absent_nomatch, dead_absent.
    - exact (late_none q u Hq Hu Ee (proj1 (proj2 (unreached _ Ht Hr)))).
  Qed.

  (* pass 4 prunes no live state *)
  Lemma live_reached : forall q, Live d q -> In q (qs d) -> pmem q R = true.
  Proof.
    intros q HL Hq. apply not_false_iff_true. intros Er. revert Hq Er.
    induction HL as [q u Hu Hm|q b Hb HL IH]; intros Hq Er; destruct (unreached q Hq Er) as [Ee [_ [_ Hc]]].
    - apply Hm, (no_winner_nomatch d _ side_dfa). intros l.
      destruct (dropped_no_win q u Hq Hu (Hc u Hu)) as [H|H]; [rewrite H; discriminate|contradiction].
    - destruct (dropped_step q (UB b) Hq Hb (Hc (UB b) Hb)) as [E|[Ht Hr]].
      + rewrite E in HL. exact (dead_not_live HL).
      + exact (IH Ht Hr).
  Qed.

  Lemma dropped_not_live q u : In q (qs d) -> unit_ok u -> keep_target d R (dstep d q u) = false -> ~ Live d (dstep d q u).
  Proof.
    intros Hq Hu Hk HL. destruct (dropped_step q u Hq Hu Hk) as [E|[Ht Hr]].
    - rewrite E in HL. exact (dead_not_live HL).
    - rewrite (live_reached _ HL Ht) in Hr. discriminate.
  Qed.

  Lemma gfind_build q : In q (qs d) -> pmem q R = true -> gfind g q = Some (bstate d B R q).
  Proof. intros Hq Hr. apply gfind_build_with. auto. Qed.

  Definition InB (s : sid) (q : qid) : Prop := s = q /\ In q (qs d) /\ pmem q R = true.

  Lemma kept_build q u : In q (qs d) -> unit_ok u -> keep_target d R (dstep d q u) = true ->
    gfind g (dstep d q u) = Some (bstate d B R (dstep d q u)) /\ InB (dstep d q u) (dstep d q u) /\
    PendOk d (bstate d B R q) (bstate d B R (dstep d q u)) (dstep d q u).
  Proof.
    intros Hq Hu Hk. apply keep_target_true in Hk as [Hd Hr].
    destruct (step_closed q u Hq Hu) as [E|Ht]; [contradiction|].
    split; [exact (gfind_build _ Ht Hr)|]. split; [exact (conj eq_refl (conj Ht Hr))|].
    intros Ee _ Ea. rewrite bstate_early in Ee. exact (late_none q u Hq Hu Ee Ea).
  Qed.

  Lemma terminal_build q : In q (qs d) -> TerminalSt (bstate d B R (etarget d q)).
  Proof.
    intros Hq.
    pose proof (fun u => eoi_terminal_spec d side_eoit q u Hq) as Hall.
    split.
    - rewrite bstate_eoi. rewrite (Hall UEoi I), (proj2 (keep_target_false d R _) (or_introl eq_refl)). reflexivity.
    - rewrite bstate_early. destruct (early d (etarget d q)) as [l|] eqn:E; [exfalso|reflexivity].
      assert (H0 : byte_ok 0) by (unfold byte_ok; lia).
      exact (proj1 (early_some d _ l E 0 H0) (Hall (UB 0) H0)).
  Qed.

  Lemma pair_build s q : InB s q -> PairOk d g InB s q.
  Proof.
    intros [-> [Hq Hr]]. exists (bstate d B R q). split; [exact (gfind_build q Hq Hr)|]. split; [split|split].
    - intros l He. rewrite bstate_early in He. exact (early_sound q l Hq He).
    - intros l _ Ha. apply acc0_some. exact (acc1_sub d B q l Ha).
    - intros b Hb. unfold ByteOk. rewrite (bstate_byte d B R q b Hb).
      destruct (keep_target d R (dstep d q (UB b))) eqn:Hk.
      + exists (bstate d B R (dstep d q (UB b))). exact (kept_build q (UB b) Hq Hb Hk).
      + rewrite bstate_early. exact (conj (dropped_not_live q (UB b) Hq Hb Hk) (dropped_no_win q (UB b) Hq Hb Hk)).
    - unfold EoiOk. rewrite (bstate_eoi d B R q). destruct (keep_target d R (dstep d q UEoi)) eqn:Hk.
      + exists (bstate d B R (dstep d q UEoi)). destruct (kept_build q UEoi Hq I Hk) as [H1 [H2 H3]].
        exact (conj H1 (conj H2 (conj (terminal_build q Hq) H3))).
      + rewrite bstate_early. exact (dropped_no_win q UEoi Hq I Hk).
  Qed.

  Lemma root_InB : InB (g_root g) (d_start d).
  Proof.
    pose proof (proj1 (closed_targets_spec d side_closed)) as Hs.
    split; [reflexivity|]. split; [exact Hs|].
    destruct (pmem (d_start d) R) eqn:Er; [reflexivity|].
    destruct (unreached _ Hs Er) as [_ [_ [H _]]]. contradiction H. reflexivity.
  Qed.

  Lemma build_walk_correct start hops rest :
    bytes_ok rest -> rest <> [] ->
    exists off, walk g false start (S hops) rest (g_root g) start None = Acted (scan d (d_start d) rest start None) off.
  Proof. apply (root_scan d g InB pair_build); [exact root_InB|exact (dfa_start_nomatch d side_dfa)]. Qed.

  Theorem build_attempt_correct start rest :
    bytes_ok rest -> rest <> [] ->
    exists off, attempt_ref g false start rest = Acted (scan d (d_start d) rest start None) off.
  Proof. apply build_walk_correct. Qed.
End Correct.
