(* Engine/Utf8Lex.v — find_boundary of str (fb_str_spec); every span boundary produced by the lexing loop on
   valid UTF-8 input is a char boundary (C04); one call of next() in str mode and in byte mode (C12). *)
From Coq Require Import List NArith Lia.
From LogosV Require Import Base.Utf8 Engine.Model Engine.Cert Engine.CertProofs Engine.StopProofs Engine.LexProofs
  Engine.Run Engine.Utf8Proofs.
Import ListNotations.
Local Open Scope N_scope.

Lemma skipn_nth {A} (w : list A) : forall n,
  skipn n w = match nth_error w n with Some b => b :: skipn (S n) w | None => [] end.
Proof.
  induction w as [|x w IH]; intros [|n]; [reflexivity..|]. cbn [nth_error]. rewrite <- IH. reflexivity.
Qed.

(* find_boundary of str: the first position from i on that does not hold a continuation byte *)
Lemma fb_str_spec (w : list byte) i :
  i <= fb_str w i /\
  (forall j, i <= j < fb_str w i -> exists b, nth_error w (N.to_nat j) = Some b /\ is_cont b = true) /\
  (forall b, nth_error w (N.to_nat (fb_str w i)) = Some b -> is_cont b = false).
Proof.
  unfold fb_str. remember (skipn (N.to_nat i) w) as rest eqn:E. revert i E.
  induction rest as [|b rest IH]; intros i E; cbn [fb_rest]; rewrite skipn_nth in E.
  - split; [apply N.le_refl|]. split; [intros j Hj; lia|]. intros b Hb. rewrite Hb in E. discriminate.
  - destruct (nth_error w (N.to_nat i)) as [b'|] eqn:En; [|discriminate].
    rewrite <- N2Nat.inj_succ, <- N.add_1_r in E. injection E as -> E'.
    destruct (is_cont b') eqn:Ec.
    + destruct (IH (i + 1) E') as [A [B C]]. split; [lia|]. split; [|exact C].
      intros j Hj. destruct (N.eq_dec j i) as [->|Hne]; [exists b'; split; assumption|apply B; lia].
    + split; [apply N.le_refl|]. split; [intros j Hj; lia|]. intros b Hb. rewrite En in Hb. injection Hb as <-. exact Ec.
Qed.

Lemma fb_str_ok : forall (w : list byte) i,
  i <= N.of_nat (length w) -> i <= fb_str w i /\ fb_str w i <= N.of_nat (length w).
Proof.
  intros w i H. destruct (fb_str_spec w i) as [A [B _]]. split; [exact A|].
  apply N.le_ngt. intros Hgt. destruct (B (N.of_nat (length w))) as [b [Hb _]]; [lia|].
  rewrite Nat2N.id, (proj2 (nth_error_None w (length w)) (le_n _)) in Hb. discriminate.
Qed.

Definition BndN (w : list N) (x : N) : Prop := Bnd w (N.to_nat x).

Section Boundaries.
  Variables (d : dfa) (g : graph) (V : pairing) (R : rankmap) (D : pset) (P : upairs).
  Hypothesis Hok : dfa_ok d = true.
  Hypothesis Hsim : sim_ok d g V D = true.
  Hypothesis Hex : exact_ok d g V R D = true.
  Hypothesis HU : utf8_ok d P = true.
  Variable act : leaf -> N -> N -> action * N.
  Variable fb : N -> N.
  Variable w : list byte.
  Hypothesis Hw : bytes_ok w.
  Hypothesis Hv : utf8_valid w = true.
  Let len := N.of_nat (length w).
  (* callbacks only bump onto boundaries inside the source (Lexer::bump panics otherwise) *)
  Hypothesis act_bnd : forall l s e, s < e -> e <= len -> BndN w e ->
                       e + snd (act l s e) <= len /\ BndN w (e + snd (act l s e)).
  Hypothesis fb_bnd : forall i, i <= len -> i <= fb i /\ fb i <= len /\ BndN w (fb i).

  Fixpoint ends_bnd (rs : list region) : Prop :=
    match rs with
    | [] => True
    | r :: rs' => BndN w (fst (region_span r)) /\ BndN w (snd (region_span r)) /\ ends_bnd rs'
    end.

  Lemma ends_bnd_app a b : ends_bnd a -> ends_bnd b -> ends_bnd (a ++ b).
  Proof.
    induction a as [|r a IH]; cbn [app ends_bnd]; intros Ha Hb; [exact Hb|].
    destruct Ha as [A [B C]]. split; [exact A|]. split; [exact B|]. exact (IH C Hb).
  Qed.

  Lemma advance_bnd start e : BndN w start -> Advance (attempt_ref g) act fb w false start e -> BndN w e.
  Proof.
    intros Hb [c [off [E ->]]].
    destruct (acted_shape d g V R D Hok Hsim Hex w Hw start c off E) as [Hlt [Hm Hc]].
    destruct c as [[l e]|].
    - (* a match of j bytes from a boundary ends on a boundary *)
      apply act_bnd; [exact (proj1 Hc)|exact (proj2 Hc)|].
      destruct Hm as [j [-> [_ [[Hin _] _]]]].
      unfold BndN. rewrite N2Nat.inj_add, Nat2N.id.
      apply (match_ends_on_boundary d P w (N.to_nat start) j HU Hw Hv Hb); [lia|].
      intros En. rewrite En in Hin. exact Hin.
    - apply fb_bnd. exact (proj2 (nmax_bounds off start _ Hc Hlt)).
  Qed.

  Lemma next_bnd : forall fuel start sk o,
    BndN w start -> next_from (attempt_ref g) act fb w false fuel start = (sk, o) ->
    ends_bnd sk /\
    match o with
    | Yield it e => BndN w (fst (region_span (RItem it))) /\ BndN w (snd (region_span (RItem it))) /\ BndN w e
    | Finished s e => BndN w s /\ BndN w e
    | Broken => True
    end.
  Proof.
    induction fuel as [|fuel IH]; intros start sk o Hb H; [injection H as <- <-; split; exact I|].
    rewrite next_from_S in H.
    destruct (turn_spec (attempt_ref g) act fb w false start) as [l e Ha|ok lo e Ha|r E|E].
    - pose proof (advance_bnd start e Hb Ha) as Hbe.
      destruct (next_from (attempt_ref g) act fb w false fuel e) as [sk0 o0] eqn:En.
      injection H as <- <-. destruct (IH _ _ _ Hbe En) as [Hs Ho].
      split; [|exact Ho]. cbn [ends_bnd region_span fst snd]. auto.
    - pose proof (advance_bnd start e Hb Ha) as Hbe.
      injection H as <- <-. split; [exact I|]. cbn [region_span fst snd]. auto.
    - injection H as <- <-. split; [exact I|]. split; exact Hb.
    - injection H as <- <-. split; exact I.
  Qed.

  (* holds from any boundary, also past the end of the input, where there is nothing to lex *)
  Theorem lex_bnd : forall fuel start rs o,
    BndN w start -> lex_from (attempt_ref g) act fb w false fuel start = (rs, o) ->
    ends_bnd rs /\ match o with Finished s e => BndN w s /\ BndN w e | _ => True end.
  Proof.
    induction fuel as [|fuel IH]; intros start rs o Hb H; cbn [lex_from] in H.
    - injection H as <- <-. split; exact I.
    - destruct (next_from (attempt_ref g) act fb w false (S (length w)) start) as [sk o1] eqn:En.
      destruct (next_bnd _ _ _ _ Hb En) as [Hs Ho].
      destruct o1 as [it e|s e|].
      + destruct (lex_from (attempt_ref g) act fb w false fuel e) as [rs1 fin] eqn:El.
        injection H as <- <-. destruct Ho as [B1 [B2 B3]].
        destruct (IH _ _ _ B3 El) as [Hr Hf]. split; [|exact Hf].
        apply ends_bnd_app; [exact Hs|]. cbn [ends_bnd]. auto.
      + injection H as <- <-. split; [exact Hs|exact Ho].
      + injection H as <- <-. split; [exact Hs|exact I].
  Qed.
End Boundaries.

(* str mode and byte mode differ only in find_boundary.  One call of next() from the same position: the
   same Ok item or callback error, or a default error with the same start whose end is each mode's
   rounding of the same raw end m. *)
Inductive out_rel (fb1 fb2 : N -> N) : outcome -> outcome -> Prop :=
| or_ok l s e : out_rel fb1 fb2 (Yield (Item true l s e) e) (Yield (Item true l s e) e)
| or_err_leaf l s e : out_rel fb1 fb2 (Yield (Item false (Some l) s e) e) (Yield (Item false (Some l) s e) e)
| or_err s m : out_rel fb1 fb2 (Yield (Item false None s (fb1 m)) (fb1 m)) (Yield (Item false None s (fb2 m)) (fb2 m))
| or_fin s e : out_rel fb1 fb2 (Finished s e) (Finished s e)
| or_broken : out_rel fb1 fb2 Broken Broken.

Lemma out_rel_cases fb1 fb2 o1 o2 : out_rel fb1 fb2 o1 o2 ->
  o1 = o2 \/ exists s m, o1 = Yield (Item false None s (fb1 m)) (fb1 m) /\ o2 = Yield (Item false None s (fb2 m)) (fb2 m).
Proof. destruct 1; eauto. Qed.

Theorem next_fb_independent attempt act fb1 fb2 w p : forall fuel start,
  fst (next_from attempt act fb1 w p fuel start) = fst (next_from attempt act fb2 w p fuel start) /\
  out_rel fb1 fb2 (snd (next_from attempt act fb1 w p fuel start)) (snd (next_from attempt act fb2 w p fuel start)).
Proof.
  induction fuel as [|fuel IH]; intros start; cbn [next_from]; [exact (conj eq_refl (or_broken fb1 fb2))|].
  destruct (attempt p start (skipn (N.to_nat start) w)) as [[[l e]|] off|r| |].
  - destruct (act l start e) as [[] bump].
    + exact (conj eq_refl (or_ok fb1 fb2 _ _ _)).
    + (* a skipped match: both calls go on from e + bump *)
      specialize (IH (e + bump)).
      destruct (next_from attempt act fb1 w p fuel (e + bump)) as [sk1 o1].
      destruct (next_from attempt act fb2 w p fuel (e + bump)) as [sk2 o2].
      cbn [fst snd] in *. destruct IH as [-> Ho]. exact (conj eq_refl Ho).
    + exact (conj eq_refl (or_err_leaf fb1 fb2 _ _ _)).
    + exact (conj eq_refl (or_err_leaf fb1 fb2 _ _ _)).
  - (* the default error: each mode rounds the same raw end *)
    exact (conj eq_refl (or_err fb1 fb2 start (nmax off (start + 1)))).
  - exact (conj eq_refl (or_fin fb1 fb2 start start)).
  - exact (conj eq_refl (or_broken fb1 fb2)).
  - exact (conj eq_refl (or_broken fb1 fb2)).
Qed.

Section Strict.
  Variables (d : dfa) (g : graph) (V : pairing) (R : rankmap) (D : pset) (P : upairs).
  Hypothesis Hok : dfa_ok d = true.
  Hypothesis Hsim : sim_ok d g V D = true.
  Hypothesis Hex : exact_ok d g V R D = true.
  Hypothesis HU : utf8_ok d P = true.
  Hypothesis HS : utf8_strict_ok d P D = true.

  (* In byte mode an attempt that starts inside a character (at a continuation byte) dies on its
     first byte: one Err covering exactly that byte. *)
  Theorem inside_char_error act (w : list byte) start b :
    nth_error w (N.to_nat start) = Some b -> byte_ok b -> ustep U0 b = URej ->
    forall fuel, next_from (attempt_ref g) act (fun i => i) w false (S fuel) start
                 = ([], Yield (Item false None start (start + 1)) (start + 1)).
  Proof.
    intros Hn Hb Hrej fuel. cbn [next_from]. rewrite skipn_nth, Hn.
    rewrite (attempt_dead d g V R D Hok Hsim Hex b _ start Hb (pu_strict d P D _ U0 b HS (pu_start d P HU) Hb Hrej)).
    rewrite nmax_max, N.max_r by lia. reflexivity.
  Qed.
End Strict.
