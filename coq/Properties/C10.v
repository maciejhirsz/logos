(* Property C10 — literal tokens match verbatim; ignore(case) is regex (?i). *)
From Coq Require Import List NArith.
From LogosV Require Import Front.Escape Engine.Model Engine.CertProofs Engine.SpecProofs Engine.DfaEquiv.
Local Open Scope N_scope.

(* the escaped form of a literal (what is handed to the regex parser when ignore(case) is set)
   denotes exactly the literal's bytes, for str literals and for byte-string literals *)
Theorem C10_escape_str_roundtrip : forall bs fuel,
  (length (escape_str bs) <= fuel)%nat -> parse_lit fuel (escape_str bs) = Some bs.
Proof.
  intros bs. apply (parse_flat_map esc_str_byte (fun _ => True)); [|apply Forall_forall; trivial].
  intros b f r _. apply parse_esc_str_byte.
Qed.
Theorem C10_escape_bytes_roundtrip : forall bs, Forall (fun b => b < 256) bs ->
  forall fuel, (length (escape_bytes bs) <= fuel)%nat -> parse_lit fuel (escape_bytes bs) = Some bs.
Proof. apply parse_flat_map. intros b f r. apply parse_esc_bytes_byte. Qed.

(* language equality certificate: a leaf of the captured DFA and a leaf of a reference DFA (the
   literal's chain automaton, or what regex-automata builds for the (?i) pattern) match exactly the
   same texts in the same contexts *)
Theorem C10_bisim_sound : forall d1 l1 d2 l2 R, bisim_ok d1 l1 d2 l2 R = true ->
  forall (rest : list byte) j, bytes_ok rest ->
  (In l1 (dmatch d1 (mstate d1 (d_start d1) rest j)) <-> In l2 (dmatch d2 (mstate d2 (d_start d2) rest j))).
Proof. exact bisim_sound. Qed.
