(* Engine/ByteClassProofs.v — the byte classes of graph edges (Engine/ByteClass.v):
   merge is the union and keeps the canonical form; the if-chain condition rendered from
   impl_with_cmp and the table form accept exactly the bytes of the class. *)
From Coq Require Import List NArith Bool Lia.
From LogosV Require Import Engine.Model Engine.CertProofs Engine.ByteClass.
Import ListNotations.
Local Open Scope N_scope.

Lemma existsb_rev {A} (f : A -> bool) (l : list A) : existsb f (rev l) = existsb f l.
Proof.
  induction l as [|x l IH]; [reflexivity|].
  cbn [rev existsb]. rewrite existsb_app. cbn [existsb]. rewrite IH, orb_false_r. apply orb_comm.
Qed.

Lemma in_range_spec b lo hi : in_range b (lo, hi) = true <-> lo <= b <= hi.
Proof. unfold in_range. cbn [fst snd]. apply andb_iff; apply N.leb_le. Qed.

Lemma in_ranges_cons b r rs : in_ranges b (r :: rs) = in_range b r || in_ranges b rs.
Proof. reflexivity. Qed.

(* the shape of the comparisons impl_with_cmp builds: exceptions lie strictly inside the range *)
Definition CInv (c : cmp) : Prop :=
  c_lo c <= c_hi c /\ Forall (fun x => c_lo c < x /\ x < c_hi c) (c_ex c).

(* the one-byte form `byte == start` is chosen by lo = hi; then there is no exception to forget *)
Lemma cmp_eval_spec c b : CInv c -> (cmp_eval c b = true <-> c_lo c <= b <= c_hi c /\ ~ In b (c_ex c)).
Proof.
  intros [Hle Hex]. unfold cmp_eval. destruct (N.eqb_spec (c_lo c) (c_hi c)) as [E|E].
  - rewrite N.eqb_eq. split; [intros ->|lia]. split; [lia|].
    intros Hin. rewrite Forall_forall in Hex. specialize (Hex _ Hin). lia.
  - apply andb_iff; [apply andb_iff; apply N.leb_le|]. rewrite forallb_forall. split.
    + intros H Hin. specialize (H b Hin). rewrite N.eqb_refl in H. discriminate.
    + intros H x Hx. apply negb_true_iff, N.eqb_neq. intros ->. exact (H Hx).
Qed.

Lemma CInv_merge c lo hi : CInv c -> lo = c_hi c + 2 -> lo <= hi ->
  CInv {| c_lo := c_lo c; c_hi := hi; c_ex := c_ex c ++ [lo - 1] |}.
Proof.
  intros [Hle Hex] Hlo Hh. split; cbn [c_lo c_hi c_ex]; [lia|].
  apply Forall_app. split; [|repeat constructor; lia].
  apply (Forall_impl _ (P := fun x => c_lo c < x < c_hi c)); [intros x H; lia|exact Hex].
Qed.

Lemma CInv_new lo hi : lo <= hi -> CInv {| c_lo := lo; c_hi := hi; c_ex := [] |}.
Proof. intros H. split; cbn [c_lo c_hi c_ex]; [exact H|constructor]. Qed.

Lemma cmp_new lo hi b : lo <= hi -> cmp_eval {| c_lo := lo; c_hi := hi; c_ex := [] |} b = in_range b (lo, hi).
Proof.
  intros H. apply eq_iff_eq_true. rewrite (cmp_eval_spec _ b (CInv_new lo hi H)), in_range_spec.
  cbn [c_lo c_hi c_ex In]. tauto.
Qed.

Lemma cmp_merge c lo hi b : CInv c -> lo = c_hi c + 2 -> lo <= hi ->
  cmp_eval {| c_lo := c_lo c; c_hi := hi; c_ex := c_ex c ++ [lo - 1] |} b = cmp_eval c b || in_range b (lo, hi).
Proof.
  intros Hc Hlo Hh. apply eq_iff_eq_true.
  rewrite orb_true_iff, (cmp_eval_spec _ b (CInv_merge c lo hi Hc Hlo Hh)), (cmp_eval_spec c b Hc), in_range_spec.
  destruct Hc as [Hle Hex]. rewrite Forall_forall in Hex. cbn [c_lo c_hi c_ex]. rewrite in_app_iff. cbn [In]. split.
  - intros [H1 H2]. destruct (N.le_gt_cases b (c_hi c)) as [Hb|Hb].
    + left. split; [lia|]. intros Hin. exact (H2 (or_introl Hin)).
    + right. assert (lo - 1 <> b) by (intros E; exact (H2 (or_intror (or_introl E)))). lia.
  - intros [[H1 H2]|H]; (split; [lia|]); intros [Hin|[E|[]]].
    + exact (H2 Hin).
    + lia.
    + specialize (Hex b Hin). lia.
    + lia.
Qed.

Definition ranges_ok (rs : ranges) : Prop := Forall (fun r => fst r <= snd r) rs.

Lemma with_cmp_rev_sem b : forall rs acc, ranges_ok rs -> Forall CInv acc ->
  existsb (fun c => cmp_eval c b) (with_cmp_rev rs acc) = in_ranges b rs || existsb (fun c => cmp_eval c b) acc.
Proof.
  induction rs as [|[lo hi] rs IH]; intros acc Hrs Hacc; cbn [with_cmp_rev]; [reflexivity|].
  apply Forall_cons_iff in Hrs as [Hr Hrs']. cbn [fst snd] in Hr. rewrite in_ranges_cons.
  assert (Hnew : forall acc0, Forall CInv acc0 ->
            existsb (fun c => cmp_eval c b) (with_cmp_rev rs ({| c_lo := lo; c_hi := hi; c_ex := [] |} :: acc0))
            = in_range b (lo, hi) || in_ranges b rs || existsb (fun c => cmp_eval c b) acc0).
  { intros acc0 H0. rewrite (IH _ Hrs' (Forall_cons _ (CInv_new lo hi Hr) H0)). cbn [existsb].
    rewrite (cmp_new lo hi b Hr), orb_assoc, (orb_comm (in_ranges b rs)). reflexivity. }
  destruct acc as [|c acc']; [exact (Hnew [] Hacc)|].
  destruct (N.eqb_spec lo (c_hi c + 2)) as [E|E]; [|exact (Hnew (c :: acc') Hacc)].
  apply Forall_cons_iff in Hacc as [Hc Hacc'].
  rewrite (IH _ Hrs' (Forall_cons _ (CInv_merge c lo hi Hc E Hr) Hacc')). cbn [existsb].
  rewrite (cmp_merge c lo hi b Hc E Hr), !orb_assoc. f_equal. rewrite orb_comm, orb_assoc. reflexivity.
Qed.

Theorem with_cmp_sem rs b : ranges_ok rs -> existsb (fun c => cmp_eval c b) (with_cmp rs) = in_ranges b rs.
Proof.
  intros Hrs. unfold with_cmp. rewrite existsb_rev, (with_cmp_rev_sem b rs [] Hrs (Forall_nil _)). apply orb_false_r.
Qed.

Lemma table_sem rs b : byte_ok b -> nth (N.to_nat b) (to_table rs) false = in_ranges b rs.
Proof. exact (nth_map_upto (fun x => in_ranges x rs) false 256 b). Qed.

(* whichever form fork.rs picks, the emitted condition holds exactly on the bytes of the class *)
Theorem cond_eval_sem rs b : ranges_ok rs -> byte_ok b -> cond_eval rs b = in_ranges b rs.
Proof.
  intros Hrs Hb. unfold cond_eval. destruct (2 <? cmp_count rs).
  - apply table_sem. exact Hb.
  - apply with_cmp_sem. exact Hrs.
Qed.

Lemma canonical_cons prev lo hi rs : canonical_from prev ((lo, hi) :: rs) = true <->
  lo <= hi < 256 /\ match prev with Some p => p + 1 < lo | None => True end /\ canonical_from (Some hi) rs = true.
Proof.
  cbn [canonical_from]. rewrite <- andb_assoc.
  apply andb_iff; [apply andb_iff; [apply N.leb_le|apply N.ltb_lt]|]. apply andb_iff; [|reflexivity].
  destruct prev; [apply N.ltb_lt|split; [intros _; exact I|reflexivity]].
Qed.

Lemma canonical_from_ok prev rs : canonical_from prev rs = true -> ranges_ok rs.
Proof.
  revert prev. induction rs as [|[lo hi] rs IH]; intros prev H; [constructor|].
  apply canonical_cons in H as (H & _ & Hrest). constructor; [cbn [fst snd]; lia|exact (IH _ Hrest)].
Qed.

Lemma canonical_ok rs : canonical rs = true -> ranges_ok rs.
Proof. unfold canonical. apply canonical_from_ok. Qed.

Lemma add_byte_sem x : forall rs b, ranges_ok rs -> in_ranges x (add_byte rs b) = in_ranges x rs || (x =? b).
Proof.
  induction rs as [|[lo hi] rs IH]; intros b Hok.
  - cbn [add_byte]. unfold in_ranges. cbn [existsb orb]. rewrite orb_false_r.
    apply eq_iff_eq_true. rewrite in_range_spec, N.eqb_eq. lia.
  - apply Forall_cons_iff in Hok as [Hr Hok']. cbn [fst snd] in Hr.
    (* add_byte goes under the head range, except where it extends the last range *)
    assert (Hcons : in_ranges x ((lo, hi) :: add_byte rs b) = in_ranges x ((lo, hi) :: rs) || (x =? b)).
    { rewrite !in_ranges_cons, (IH b Hok'). apply orb_assoc. }
    destruct rs as [|r2 rs2]; [|exact Hcons].
    cbn [add_byte] in *. destruct (N.eqb_spec (hi + 1) b) as [E|_]; [|exact Hcons].
    unfold in_ranges. cbn [existsb]. rewrite !orb_false_r.
    apply eq_iff_eq_true. rewrite orb_true_iff, !in_range_spec, N.eqb_eq. lia.
Qed.

(* bytes are added in ascending order: b lies above every byte of the class *)
Lemma add_byte_canon b : b < 256 -> forall rs prev,
  canonical_from prev rs = true -> (forall x, in_ranges x rs = true -> x < b) ->
  match prev with Some p => (rs = [] -> p + 1 < b) | None => True end ->
  canonical_from prev (add_byte rs b) = true.
Proof.
  intros Hb. induction rs as [|[lo hi] rs IH]; intros prev Hc Hlt Hp.
  - apply canonical_cons. split; [lia|]. split; [destruct prev; [exact (Hp eq_refl)|exact I]|reflexivity].
  - apply canonical_cons in Hc as (Hr & Hprev & Hrest).
    assert (Hh : hi < b). { apply Hlt. rewrite in_ranges_cons, (proj2 (in_range_spec hi lo hi)) by lia. reflexivity. }
    assert (Hcons : (rs = [] -> hi + 1 < b) -> canonical_from prev ((lo, hi) :: add_byte rs b) = true).
    { intros Hgap. apply canonical_cons. split; [exact Hr|]. split; [exact Hprev|]. apply IH; [exact Hrest| |exact Hgap].
      intros x Hx. apply Hlt. rewrite in_ranges_cons, Hx. apply orb_true_r. }
    destruct rs as [|r2 rs2]; [|apply Hcons; discriminate].
    cbn [add_byte] in *. destruct (N.eqb_spec (hi + 1) b) as [E|E]; [|apply Hcons; intros _; lia].
    apply canonical_cons. split; [lia|]. split; [exact Hprev|reflexivity].
Qed.

Lemma ltb_succ x n : (x <? n + 1) = (x <? n) || (x =? n).
Proof. apply eq_iff_eq_true. rewrite orb_true_iff, !N.ltb_lt, N.eqb_eq. lia. Qed.

Lemma merge_upto_snoc a b l x : merge_upto a b (l ++ [x]) =
  if in_ranges x a || in_ranges x b then add_byte (merge_upto a b l) x else merge_upto a b l.
Proof. unfold merge_upto. rewrite fold_left_app. reflexivity. Qed.

Lemma merge_upto_spec a b : forall n, N.of_nat n <= 256 ->
  let acc := merge_upto a b (upto n) in
  canonical acc = true /\ forall x, in_ranges x acc = (x <? N.of_nat n) && (in_ranges x a || in_ranges x b).
Proof.
  induction n as [|n IH]; intros Hn.
  - split; [reflexivity|]. intros x. destruct x; reflexivity.
  - assert (Hn' : N.of_nat n < 256) by lia. destruct (IH (N.lt_le_incl _ _ Hn')) as (Hc & Hsem).
    cbn [upto]. rewrite merge_upto_snoc, Nat2N.inj_succ, <- N.add_1_r. set (acc := merge_upto a b (upto n)) in *.
    destruct (in_ranges (N.of_nat n) a || in_ranges (N.of_nat n) b) eqn:Et.
    + split.
      * apply (add_byte_canon _ Hn' acc None Hc); [|exact I].
        intros x Hx. rewrite Hsem in Hx. apply andb_prop in Hx as [Hx _]. apply N.ltb_lt, Hx.
      * intros x. rewrite (add_byte_sem x acc _ (canonical_ok _ Hc)), Hsem, ltb_succ.
        destruct (N.eqb_spec x (N.of_nat n)) as [->|_]; [rewrite Et, !orb_true_r|rewrite !orb_false_r]; reflexivity.
    + split; [exact Hc|]. intros x. rewrite Hsem, ltb_succ.
      destruct (N.eqb_spec x (N.of_nat n)) as [->|_]; [rewrite Et, !andb_false_r|rewrite orb_false_r]; reflexivity.
Qed.

Lemma merge_spec a b : canonical (merge a b) = true /\
  forall x, in_ranges x (merge a b) = (x <? 256) && (in_ranges x a || in_ranges x b).
Proof. exact (merge_upto_spec a b 256 (N.le_refl 256)). Qed.

(* no condition on the form of a and b *)
Theorem merge_sem a b x : byte_ok x -> in_ranges x (merge a b) = in_ranges x a || in_ranges x b.
Proof. intros Hx. apply N.ltb_lt in Hx. rewrite (proj2 (merge_spec a b)), Hx. reflexivity. Qed.

Theorem merge_canonical a b : canonical (merge a b) = true.
Proof. exact (proj1 (merge_spec a b)). Qed.

Theorem merge_no_extra a b x : 256 <= x -> in_ranges x (merge a b) = false.
Proof. intros Hx. apply N.ltb_ge in Hx. rewrite (proj2 (merge_spec a b)), Hx. reflexivity. Qed.

Corollary merged_condition a b x : byte_ok x -> cond_eval (merge a b) x = in_ranges x a || in_ranges x b.
Proof.
  intros Hx. rewrite (cond_eval_sem _ x (canonical_ok _ (merge_canonical a b)) Hx). exact (merge_sem a b x Hx).
Qed.
