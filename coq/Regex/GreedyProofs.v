From Coq Require Import List Bool.
From LogosV Require Import Regex.Greedy.
Local Open Scope N_scope.

Theorem greedy_complete : forall r, HasGreedyDot r -> greedy r = true.
Proof.
  intros r H. induction H as [mn sub Hd|mn mx g sub _ IH|s _ IH|rs r Hin _ IH|rs r Hin _ IH]; cbn [greedy].
  - unfold rep_is_greedy_dot. rewrite Hd. reflexivity.
  - rewrite IH. apply orb_true_r.
  - exact IH.
  - apply existsb_exists. exists r. split; [exact Hin|exact IH].
  - apply existsb_exists. exists r. split; [exact Hin|exact IH].
Qed.
