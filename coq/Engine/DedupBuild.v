(* Engine/DedupBuild.v — the whole modelled Graph::new: passes 1-4 (GraphBuild.build), then the
   de-duplication loop (Dedup.dedup).  [build d] is well formed and closed, so the loop preserves
   its walks, and the attempt on the final graph computes the DFA-level scan. *)
From Coq Require Import List Lia.
From LogosV Require Import Engine.Model Engine.Cert Engine.Dedup Engine.CertProofs Engine.GraphBuild Engine.BuildProofs
                           Engine.DedupProofs.
Import ListNotations.
Local Open Scope N_scope.

Section BuildWf.
  Variable d : dfa.
  Hypothesis Hside : build_side d = true.
  Let B := bad_set d.
  Let R := reach_set d B.

  Lemma build_wf : wf_graph (build d) = true.
  Proof.
    apply wf_graph_iff. intros s st H. destruct (proj1 (gfind_build_with d B R s st) H) as [_ [_ ->]].
    apply wf_state_iff. split; [|rewrite bstate_targets; apply targets_nodup].
    intros x Hx. cbn [bstate g_edges]. unfold edges. rewrite (count_class d s x Hx _ (targets_nodup d R s)).
    destruct (existsb _ _); lia.
  Qed.

  Lemma kept_present s u : In s (qs d) -> unit_ok u -> keep_target d R (dstep d s u) = true ->
    present (build d) (dstep d s u).
  Proof. intros Hq Hu Hk. exists (bstate d B R (dstep d s u)). exact (proj1 (kept_build d Hside s u Hq Hu Hk)). Qed.

  Lemma build_closed : closed_graph (build d) = true.
  Proof.
    apply closed_graph_iff. split.
    - intros s st H. destruct (proj1 (gfind_build_with d B R s st) H) as [Hq [_ ->]]. apply closed_state_iff. split.
      + intros t Ht. rewrite bstate_targets in Ht. destruct (proj1 (targets_spec d R s t) Ht) as [b [Hb [<- Hk]]].
        exact (kept_present s (UB b) Hq Hb Hk).
      + intros t. rewrite bstate_eoi. destruct (keep_target d R (dstep d s UEoi)) eqn:Hk; [|discriminate].
        intros E. injection E as <-. exact (kept_present s UEoi Hq I Hk).
    - destruct (root_InB d Hside) as [_ [Hin Hr]]. exists (bstate d B R (d_start d)). exact (gfind_build d _ Hin Hr).
  Qed.

  Theorem dedup_build_walk start hops rest : bytes_ok rest -> rest <> [] ->
    exists off, walk (dedup (build d)) false start (S hops) rest (g_root (dedup (build d))) start None
                = Acted (scan d (d_start d) rest start None) off.
  Proof.
    intros Hw Hne. rewrite <- (dedup_attempt (build d) build_wf build_closed false start (S hops) rest Hw).
    exact (build_walk_correct d Hside start hops rest Hw Hne).
  Qed.

  Theorem dedup_build_attempt start rest : bytes_ok rest -> rest <> [] ->
    exists off, attempt_ref (dedup (build d)) false start rest = Acted (scan d (d_start d) rest start None) off.
  Proof. apply dedup_build_walk. Qed.
End BuildWf.
