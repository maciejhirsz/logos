(* Property C09 — default priorities follow the documented specificity rule.
   `complexity` (Regex/Re.v) mirrors Pattern::complexity; its tie to the code is the per-leaf comparison
   with the captured priority. *)
From Coq Require Import List NArith.
From LogosV Require Import Regex.Re Regex.ReProofs.
Import ListNotations.
Local Open Scope N_scope.

(* any string matched by r has at least complexity(r)/2 bytes *)
Theorem C09_complexity_le_len : forall r w, Matches r w -> complexity r <= 2 * N.of_nat (length w).
Proof. exact complexity_le_len. Qed.

(* hence a regex with default priority that matches a literal token's text has priority <= the
   token's default priority 2 * byte length: the token wins or the tie is reported (C08) *)
Theorem C09_literal_never_beaten : forall r bs, Matches r bs -> complexity r <= token_priority bs.
Proof. exact complexity_le_len. Qed.

(* the documented structural rule *)
Theorem C09_rule_concat : forall a b, complexity (RCat [a; b]) = complexity a + complexity b.
Proof. intros a b. cbn [complexity fold_right]. rewrite N.add_0_r. reflexivity. Qed.
Theorem C09_rule_alternation : forall a b, complexity (RAlt [a; b]) = N.min (complexity a) (complexity b).
Proof. reflexivity. Qed.
Theorem C09_rule_repetition : forall mn mx g r, complexity (RRep mn mx g r) = mn * complexity r.
Proof. reflexivity. Qed.
Theorem C09_rule_assertion : complexity RLook = 0.
Proof. reflexivity. Qed.

(* what the code computes (usize arithmetic, saturating since finding F11 was repaired) is the documented value
   cut off at usize::MAX, and the documented value itself whenever that fits *)
Theorem C09_code_value_is_rule_saturated : forall r, lits_small r = true -> complexity_sat r = N.min (complexity r) usize_max.
Proof. exact complexity_sat_spec. Qed.
Theorem C09_code_value_exact : forall r, lits_small r = true -> complexity r <= usize_max -> complexity_sat r = complexity r.
Proof. intros r H Hle. rewrite (complexity_sat_spec r H). apply sat_small, Hle. Qed.
