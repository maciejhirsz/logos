(* Property C02 — error items follow the documented span rule and lexing recovers. *)
From Coq Require Import List NArith FMapPositive.
From LogosV Require Import Engine.Model Engine.Cert Engine.CertProofs Engine.SpecProofs Engine.StopProofs Engine.Prog Engine.ProgProofs.
Import ListNotations.
Local Open Scope N_scope.

(* When no pattern matches any prefix at position start, the attempt stops at start + v where v is
   the number of bytes before the first byte (end of input counting as one) after which the text read
   can no longer be extended to a match (FirstDead), records nothing, and next() yields one Err whose
   span is start .. fb (max (start+v) (start+1)); the following call of next() starts there. *)
Theorem C02_error_span : forall d g V R D,
  dfa_ok d = true -> sim_ok d g V D = true -> exact_ok d g V R D = true ->
  forall (w : list byte) (start : N), bytes_ok w -> start < N.of_nat (length w) ->
  (forall j, (j <= length (skipn (N.to_nat start) w))%nat -> NoMatch d (skipn (N.to_nat start) w) j) ->
  exists v, FirstDead d (d_start d) (skipn (N.to_nat start) w) v /\
    attempt_ref g false start (skipn (N.to_nat start) w) = Acted None (start + N.of_nat v) /\
    forall act fb fuel,
      next_from (attempt_ref g) act fb w false (S fuel) start =
      ([], Yield (Item false None start (fb (nmax (start + N.of_nat v) (start + 1))))
                 (fb (nmax (start + N.of_nat v) (start + 1)))).
Proof.
  intros d g V R D Hok Hsim Hex w start Hw Hlt Hno. pose proof (bytes_ok_skipn (N.to_nat start) w Hw) as Hr.
  destruct (attempt_exact d g V R D Hok Hsim Hex start _ Hr (skipn_nonempty w start Hlt)) as [off [Ha Hoff]].
  rewrite (proj2 (scan_none_iff d _ start Hok Hr) Hno) in Ha, Hoff.
  destruct (exact_ok_hints d g V R D Hsim Hex) as [HR [HC HD]].
  destruct (viable_end_spec d R D Hok HR HC HD (skipn (N.to_nat start) w) (d_start d) start) as [v [Hv HF]].
  rewrite (Hoff eq_refl), Hv in Ha.
  exists v. split; [exact HF|]. split; [exact Ha|].
  intros act fb fuel. cbn [next_from]. rewrite Ha. reflexivity.
Qed.

(* More generally: every attempt consumes a byte only if the state reached is live or confirms a
   match, and stops at a byte only if the state it would reach is not live (Stops). *)
Theorem C02_stop_exact : forall d g V R D,
  dfa_ok d = true -> sim_ok d g V D = true -> exact_ok d g V R D = true ->
  forall (rest : list byte) (start : N) c off, bytes_ok rest ->
  attempt_ref g false start rest = Acted c off -> Stops d R (d_start d) rest start off.
Proof. intros d g V R D Hok Hsim Hex rest start c off. exact (attempt_stops d g V R D Hok Hsim Hex start rest c off). Qed.

(* the liveness hint used by Stops is exactly the inductive notion *)
Theorem C02_lv_is_live : forall d g V R D,
  dfa_ok d = true -> sim_ok d g V D = true -> exact_ok d g V R D = true ->
  forall q, lv_of R q = true <-> Live d q.
Proof. exact lv_iff_live. Qed.

(* the same for the program the code generator emits (translator K12, checker prog_ok) *)
Theorem C02_emitted_stop_exact : forall U g p,
  prog_ok g p = true -> wf_graph g = true ->
  forall d V R D, dfa_ok d = true -> sim_ok d g V D = true -> exact_ok d g V R D = true ->
  forall (rest : list byte) (start : N) c off, bytes_ok rest ->
  fst (attempt_prog U p (PositiveMap.cardinal (g_states g)) false start rest) = Acted c off ->
  Stops d R (d_start d) rest start off.
Proof.
  intros U g p Hp Hwf d V R D Hok Hsim Hex rest start c off Hb H.
  rewrite (attempt_prog_is_ref U g p false start rest Hp Hwf Hb) in H.
  exact (attempt_stops d g V R D Hok Hsim Hex start rest c off Hb H).
Qed.
