(* Engine/CertProofs.v — what the boolean checks of Engine/Cert.v say (over all bytes, all units, a map, a
   pairing), liveness of DFA states, and the attempt theorem: under the simulation certificate the walk of the
   graph computes the DFA-level scan. *)
From Coq Require Import List Arith NArith Bool FMapPositive Lia.
From LogosV Require Import Engine.Model Engine.Cert.
Import ListNotations.
Local Open Scope N_scope.

Definition byte_ok (b : N) : Prop := b < 256.
Definition bytes_ok (w : list N) : Prop := Forall byte_ok w.
Definition unit_ok (u : unit_) : Prop := match u with UB b => byte_ok b | UEoi => True end.

Lemma bytes_ok_firstn n w : bytes_ok w -> bytes_ok (firstn n w).
Proof. intros H. rewrite <- (firstn_skipn n w) in H. exact (proj1 (proj1 (Forall_app _ _ _) H)). Qed.

Lemma bytes_ok_skipn n w : bytes_ok w -> bytes_ok (skipn n w).
Proof. intros H. rewrite <- (firstn_skipn n w) in H. exact (proj2 (proj1 (Forall_app _ _ _) H)). Qed.

Lemma in_upto n b : In b (upto n) <-> b < N.of_nat n.
Proof.
  induction n as [|n IH]; cbn [upto]; [split; [intros []|lia]|].
  rewrite in_app_iff, IH. cbn [In]. lia.
Qed.

Lemma upto_length n : length (upto n) = n.
Proof. induction n as [|n IH]; [reflexivity|]. cbn [upto]. rewrite app_length. cbn [length]. lia. Qed.

Lemma nth_map_upto {A} (f : N -> A) d n b : b < N.of_nat n -> nth (N.to_nat b) (map f (upto n)) d = f b.
Proof.
  induction n as [|n IH]; intros H; [lia|]. cbn [upto]. rewrite map_app.
  assert (L : length (map f (upto n)) = n) by (rewrite map_length; apply upto_length).
  destruct (N.eq_dec b (N.of_nat n)) as [->|Hne].
  - rewrite app_nth2, L, Nat2N.id, Nat.sub_diag; [reflexivity|rewrite L, Nat2N.id; lia].
  - rewrite app_nth1; [apply IH; lia|rewrite L; lia].
Qed.

(* to be used by proj1 / proj2: `apply` through this equivalence lets the unifier compute all_bytes *)
Lemma in_all_bytes b : In b all_bytes <-> byte_ok b.
Proof. exact (in_upto 256 b). Qed.

(* stated over a variable list: with [all_bytes] in its place the kernel would evaluate that list *)
Lemma in_units_of l u : In u (UEoi :: map UB l) <-> match u with UB b => In b l | UEoi => True end.
Proof.
  destruct u as [b|]; split.
  - intros [H|H]; [discriminate|]. apply in_map_iff in H as [x [E H]]. injection E as <-. exact H.
  - intros H. right. apply in_map, H.
  - trivial.
  - intros _. left. reflexivity.
Qed.

Lemma in_all_units u : In u all_units <-> unit_ok u.
Proof. unfold all_units. rewrite in_units_of. destruct u as [b|]; [apply in_all_bytes|reflexivity]. Qed.

Lemma forallb_by {A} (P : A -> Prop) l (Hl : forall x, In x l <-> P x) f :
  forallb f l = true <-> forall x, P x -> f x = true.
Proof. rewrite forallb_forall. split; intros H x Hx; apply H, Hl, Hx. Qed.

Lemma existsb_by {A} (P : A -> Prop) l (Hl : forall x, In x l <-> P x) f :
  existsb f l = true <-> exists x, P x /\ f x = true.
Proof. rewrite existsb_exists. split; intros [x [Hx H]]; exists x; (split; [apply Hl, Hx|exact H]). Qed.

Lemma forallb_bytes f : forallb f all_bytes = true <-> forall b, byte_ok b -> f b = true.
Proof. exact (forallb_by byte_ok all_bytes in_all_bytes f). Qed.
Lemma forallb_units f : forallb f all_units = true <-> forall u, unit_ok u -> f u = true.
Proof. exact (forallb_by unit_ok all_units in_all_units f). Qed.
Lemma existsb_bytes f : existsb f all_bytes = true <-> exists b, byte_ok b /\ f b = true.
Proof. exact (existsb_by byte_ok all_bytes in_all_bytes f). Qed.
Lemma existsb_units f : existsb f all_units = true <-> exists u, unit_ok u /\ f u = true.
Proof. exact (existsb_by unit_ok all_units in_all_units f). Qed.

Lemma forallb_false {A} (f : A -> bool) l : forallb f l = false -> exists x, In x l /\ f x = false.
Proof.
  induction l as [|x l IH]; cbn [forallb]; [discriminate|]. intros H.
  destruct (f x) eqn:E.
  - destruct (IH H) as [y [Hy Hf]]. exists y. split; [right; exact Hy|exact Hf].
  - exists x. split; [left; reflexivity|exact E].
Qed.

Lemma forallb_find {A} (f : positive * A -> bool) m k v :
  forallb f (PositiveMap.elements m) = true -> PositiveMap.find k m = Some v -> f (k, v) = true.
Proof. rewrite forallb_forall. intros H E. apply H, PositiveMap.elements_correct, E. Qed.

Lemma forallb_elements {A} (f : positive * A -> bool) m :
  forallb f (PositiveMap.elements m) = true <-> forall k v, PositiveMap.find k m = Some v -> f (k, v) = true.
Proof.
  split; [intros H k v; exact (forallb_find f m k v H)|].
  intros H. apply forallb_forall. intros [k v] Hin. apply H, PositiveMap.elements_complete, Hin.
Qed.

Lemma in_keys_elements {A} (m : PositiveMap.t A) k :
  In k (map fst (PositiveMap.elements m)) <-> exists v, PositiveMap.find k m = Some v.
Proof.
  rewrite in_map_iff. split.
  - intros [[k' v] [<- H]]. exists v. apply PositiveMap.elements_complete, H.
  - intros [v H]. exists (k, v). split; [reflexivity|apply PositiveMap.elements_correct, H].
Qed.

Lemma forallb_pairs {A} (eqb : A -> A -> bool) (f : positive -> A -> bool) (M : PositiveMap.t (list A)) k x :
  (forall y, eqb x y = true -> x = y) ->
  forallb (fun kv => forallb (f (fst kv)) (snd kv)) (PositiveMap.elements M) = true ->
  match PositiveMap.find k M with Some l => existsb (eqb x) l | None => false end = true -> f k x = true.
Proof.
  intros Heq H. destruct (PositiveMap.find k M) as [l|] eqn:E; [|discriminate].
  intros Hx. apply existsb_exists in Hx as [y [Hy Hxy]]. rewrite (Heq y Hxy).
  apply (forallb_find _ _ _ _ H) in E. cbn [fst snd] in E. rewrite forallb_forall in E. exact (E y Hy).
Qed.

Lemma forallb_inV (f : sid -> qid -> bool) V s q :
  forallb (fun kv => forallb (f (fst kv)) (snd kv)) (PositiveMap.elements V) = true ->
  inV V s q = true -> f s q = true.
Proof. exact (forallb_pairs Pos.eqb f V s q (fun y => proj1 (Pos.eqb_eq q y))). Qed.

(* the relation of a pairing, as the argument of statements over an arbitrary relation; in hypotheses it is written out *)
Definition paired (V : pairing) (s : sid) (q : qid) : Prop := inV V s q = true.

Lemma andb_iff (b c : bool) (P Q : Prop) : (b = true <-> P) -> (c = true <-> Q) -> (b && c = true <-> P /\ Q).
Proof. intros H K. rewrite andb_true_iff, H, K. reflexivity. Qed.
Lemma leaf_eqb_eq a b : leaf_eqb a b = true <-> a = b.
Proof. destruct a as [x|], b as [y|]; cbn [leaf_eqb]; [rewrite N.eqb_eq| | |]; split; congruence. Qed.
Lemma win_is_true wn l : win_is wn l = true -> wn = WOne l.
Proof. destruct wn as [|l'|]; cbn [win_is]; [discriminate| |discriminate]. intros H. apply N.eqb_eq in H. congruence. Qed.
Lemma winner_eqb_eq a b : winner_eqb a b = true <-> a = b.
Proof. destruct a as [|x|], b as [|y|]; cbn [winner_eqb]; [| | | |rewrite N.eqb_eq| | | |]; split; congruence. Qed.
Lemma win_none_true wn : win_none wn = true -> wn = WNone.
Proof. destruct wn; cbn; congruence. Qed.
Lemma is_none_true {A} (o : option A) : is_none o = true -> o = None.
Proof. destruct o; cbn; congruence. Qed.
Lemma is_none_false {A} (o : option A) : negb (is_none o) = true -> o <> None.
Proof. destruct o; cbn; congruence. Qed.
Lemma nomatch_true d q : nomatch d q = true <-> dmatch d q = [].
Proof. unfold nomatch. destruct (dmatch d q); split; congruence. Qed.
Lemma nomatch_false d q : negb (nomatch d q) = true <-> dmatch d q <> [].
Proof. unfold nomatch. destruct (dmatch d q); cbn [negb]; split; congruence. Qed.

Lemma in_ranges_singletons b (l : list N) : in_ranges b (map (fun x => (x, x)) l) = true <-> In b l.
Proof.
  unfold in_ranges. rewrite existsb_exists. split.
  - intros [r [Hin Hr]]. apply in_map_iff in Hin as [x [<- Hx]].
    unfold in_range in Hr. cbn [fst snd] in Hr. apply andb_prop in Hr as [H1 H2].
    apply N.leb_le in H1, H2. replace b with x by lia. exact Hx.
  - intros H. exists (b, b). split; [exact (in_map (fun x => (x, x)) l b H)|].
    unfold in_range. cbn [fst snd]. rewrite N.leb_refl. reflexivity.
Qed.

Lemma in_ranges_filter_bytes (f : N -> bool) b : byte_ok b ->
  in_ranges b (map (fun x => (x, x)) (filter f all_bytes)) = f b.
Proof.
  intros Hb. apply eq_iff_eq_true. rewrite in_ranges_singletons, filter_In.
  split; [intros [_ H]; exact H|intros H; exact (conj (proj2 (in_all_bytes b) Hb) H)].
Qed.

Lemma existsb_eqb {A} (eqb : A -> A -> bool) : (forall x y, eqb x y = true <-> x = y) ->
  forall x l, existsb (eqb x) l = true <-> In x l.
Proof.
  intros Heq x l. rewrite existsb_exists. split.
  - intros [y [Hin E]]. apply Heq in E. subst. exact Hin.
  - intros H. exists x. split; [exact H|apply Heq; reflexivity].
Qed.

Lemma existsb_eqb_in (q : qid) l : existsb (Pos.eqb q) l = true <-> In q l.
Proof. exact (existsb_eqb Pos.eqb Pos.eqb_eq q l). Qed.

Lemma nodup_pos_iff l : nodup_pos l = true <-> NoDup l.
Proof.
  induction l as [|x l IH]; cbn [nodup_pos]; [split; [constructor|reflexivity]|].
  rewrite andb_true_iff, negb_true_iff, NoDup_cons_iff, <- not_true_iff_false, existsb_eqb_in, IH. reflexivity.
Qed.

Lemma wf_state_iff st : wf_state st = true <->
  (forall b, byte_ok b -> (count_edges (g_edges st) b <= 1)%nat) /\ NoDup (map snd (g_edges st)).
Proof. unfold wf_state. rewrite andb_true_iff, forallb_bytes, nodup_pos_iff. setoid_rewrite Nat.leb_le. reflexivity. Qed.

Lemma wf_graph_iff g : wf_graph g = true <-> forall s st, gfind g s = Some st -> wf_state st = true.
Proof. apply (forallb_elements (fun kv => wf_state (snd kv))). Qed.

Inductive Live (d : dfa) : qid -> Prop :=
| live_now q u : unit_ok u -> dmatch d (dstep d q u) <> [] -> Live d q
| live_step q b : byte_ok b -> Live d (dstep d q (UB b)) -> Live d q.

Lemma dead_ok_spec d D q : dead_ok d D = true -> pmem q D = true ->
  (forall u, unit_ok u -> dmatch d (dstep d q u) = []) /\ (forall b, byte_ok b -> pmem (dstep d q (UB b)) D = true).
Proof.
  unfold pmem. intros HD Hq. destruct (PositiveMap.find q D) as [[]|] eqn:E; [|discriminate].
  apply (forallb_find _ _ _ _ HD) in E. cbn [fst] in E. apply andb_prop in E as [H1 H2]. split.
  - intros u Hu. apply nomatch_true. exact (proj1 (forallb_units _) H1 u Hu).
  - exact (proj1 (forallb_bytes _) H2).
Qed.

Lemma dead_ok_sound d D : dead_ok d D = true -> forall q, pmem q D = true -> ~ Live d q.
Proof.
  intros HD q Hq HL. induction HL as [q u Hu Hm | q b Hb HL IH]; destruct (dead_ok_spec d D q HD Hq) as [H1 H2].
  - exact (Hm (H1 u Hu)).
  - exact (IH (H2 b Hb)).
Qed.

Lemma win_nomatch d q : dmatch d q = [] -> win d q = WNone.
Proof. unfold win. intros ->. reflexivity. Qed.

Lemma scan_not_live d : forall rest q k best,
  bytes_ok rest -> ~ Live d q -> scan d q rest k best = best.
Proof.
  assert (Hnone : forall q u, ~ Live d q -> unit_ok u -> win d (dstep d q u) = WNone).
  { intros q u HL Hu. apply win_nomatch. destruct (dmatch d (dstep d q u)) eqn:E; [reflexivity|].
    destruct HL. apply (live_now d q u Hu). rewrite E. discriminate. }
  induction rest as [|b rest IH]; intros q k best Hw HL; cbn [scan].
  - rewrite (Hnone q UEoi HL I). reflexivity.
  - apply Forall_cons_iff in Hw as [Hb Hw']. rewrite (Hnone q (UB b) HL Hb).
    apply IH; [exact Hw'|]. intros HL'. exact (HL (live_step d q b Hb HL')).
Qed.

Lemma absent_step d q u : PositiveMap.find q (d_states d) = None -> dstep d q u = d_dead d.
Proof. unfold dstep. intros ->. reflexivity. Qed.
Lemma absent_nomatch d q : PositiveMap.find q (d_states d) = None -> dmatch d q = [].
Proof. unfold dmatch. intros ->. reflexivity. Qed.
Lemma absent_not_live d q : PositiveMap.find (d_dead d) (d_states d) = None ->
  PositiveMap.find q (d_states d) = None -> ~ Live d q.
Proof.
  intros Hd Hq HL. revert Hq. induction HL as [q u Hu Hm|q b Hb HL IH]; intros Hq; rewrite (absent_step d q _ Hq) in *.
  - exact (Hm (absent_nomatch d _ Hd)).
  - exact (IH Hd).
Qed.

Lemma upd_one best k l : upd best k (WOne l) = Some (l, k).
Proof. reflexivity. Qed.

Lemma edge_first_in es b t : edge_first es b = Some t -> exists rs, In (rs, t) es.
Proof.
  induction es as [|[rs t'] es IH]; cbn [edge_first]; [discriminate|].
  destruct (in_ranges b rs).
  - intros H. injection H as ->. exists rs. left. reflexivity.
  - intros H. destruct (IH H) as [rs' Hin]. exists rs'. right. exact Hin.
Qed.

Lemma at_eoi_eq g p start hops s off c :
  at_eoi g p start hops s off c =
  match gfind g s with
  | None => Stuck
  | Some st =>
      let c := record st off c in
      if partial_mode_test st && p then RetNone true
      else if (Pos.eqb s (g_root g)) && (off =? start) then RetNone false
      else match g_eoi st with
           | None => Acted c off
           | Some t => match hops with O => Diverged | S h => at_eoi g p start h t (off + 1) c end
           end
  end.
Proof. destruct hops; reflexivity. Qed.

Lemma at_eoi_oneshot g start hops s off c st : gfind g s = Some st -> (s = g_root g -> off <> start) ->
  at_eoi g false start hops s off c =
  match g_eoi st with
  | None => Acted (record st off c) off
  | Some t => match hops with O => Diverged | S h => at_eoi g false start h t (off + 1) (record st off c) end
  end.
Proof.
  intros Hst Hroot. rewrite at_eoi_eq, Hst, andb_false_r.
  destruct (Pos.eqb_spec s (g_root g)) as [E|E]; [|reflexivity].
  rewrite (proj2 (N.eqb_neq off start) (Hroot E)). reflexivity.
Qed.

(* The simulation argument, stated over Prop-level conditions on an arbitrary relation InV between graph
   states and DFA states: the boolean certificate sim_ok establishes them (Section Sim), and so does the
   modelled Graph::new for every DFA, with the identity relation (Engine/BuildProofs.v). *)
Section Attempt.
  Variables (d : dfa) (g : graph).

  (* The attempt invariant.  On arrival in graph state s paired with DFA state q at offset off,
     with recorded context c: the match of the text ending at off-1 (shown by win d q) is either
     supplied by this state's late accept, overridden by its early accept, or already in c. *)
  Definition pend_inv (st : gstate) (q : qid) (off : N) (c : ctx) : Prop :=
    g_early st = None -> g_accept st = None -> upd c (off - 1) (win d q) = c.

  (* late accept of the child must not lose the pending match *)
  Definition PendOk (st st' : gstate) (q' : qid) : Prop :=
    g_early st = None -> g_early st' = None -> g_accept st' = None -> win d q' = WNone.

  (* what the argument needs of the state behind an end-of-input edge; Cert.terminal also checks that it has no
     edges, which no proof uses *)
  Definition TerminalSt (st : gstate) : Prop := g_eoi st = None /\ g_early st = None.

  (* the late accept is constrained only where the generated code looks at it: in a state without early accept *)
  Definition AcceptOk (st : gstate) (q : qid) : Prop :=
    (forall l, g_early st = Some l -> forall u, unit_ok u -> win d (dstep d q u) = WOne l) /\
    (forall l, g_early st = None -> g_accept st = Some l -> win d q = WOne l).

  Section Abs.
    Variable InV : sid -> qid -> Prop.

    Definition ByteOk (st : gstate) (q : qid) (b : N) : Prop :=
      match edge_first (g_edges st) b with
      | Some t => exists st', gfind g t = Some st' /\ InV t (dstep d q (UB b)) /\ PendOk st st' (dstep d q (UB b))
      | None => ~ Live d (dstep d q (UB b)) /\ (win d (dstep d q (UB b)) = WNone \/ g_early st <> None)
      end.

    Definition EoiOk (st : gstate) (q : qid) : Prop :=
      match g_eoi st with
      | Some t => exists st', gfind g t = Some st' /\ InV t (dstep d q UEoi) /\ TerminalSt st' /\ PendOk st st' (dstep d q UEoi)
      | None => win d (dstep d q UEoi) = WNone \/ g_early st <> None
      end.

    Definition PairOk (s : sid) (q : qid) : Prop :=
      exists st, gfind g s = Some st /\ AcceptOk st q /\ (forall b, byte_ok b -> ByteOk st q b) /\ EoiOk st q.

    Hypothesis Hinv : forall s q, InV s q -> PairOk s q.

    Lemma pair_state s q st : InV s q -> gfind g s = Some st ->
      AcceptOk st q /\ (forall b, byte_ok b -> ByteOk st q b) /\ EoiOk st q.
    Proof. intros HV Hst. destruct (Hinv s q HV) as [st0 [Hst0 H]]. rewrite Hst in Hst0. injection Hst0 as <-. exact H. Qed.

    Lemma record_eff st q off c : AcceptOk st q -> pend_inv st q off c -> g_early st = None ->
      record st off c = upd c (off - 1) (win d q).
    Proof.
      intros [_ Hacc] Hp En. unfold record. rewrite En. destruct (g_accept st) as [l|] eqn:Ea.
      - rewrite (Hacc l En eq_refl). reflexivity.
      - symmetry. exact (Hp En Ea).
    Qed.

    (* seen through the match that the next unit shows, what the state recorded is what the scan holds *)
    Lemma record_next st q off c u : AcceptOk st q -> pend_inv st q off c -> unit_ok u ->
      upd (record st off c) off (win d (dstep d q u)) = upd (upd c (off - 1) (win d q)) off (win d (dstep d q u)).
    Proof.
      intros Ha Hp Hu. destruct (g_early st) as [l|] eqn:Ee.
      - rewrite (proj1 Ha l Ee u Hu). reflexivity.
      - rewrite (record_eff st q off c Ha Hp Ee). reflexivity.
    Qed.

    Lemma record_keeps st q off c u : AcceptOk st q -> unit_ok u ->
      win d (dstep d q u) = WNone \/ g_early st <> None ->
      upd (record st off c) off (win d (dstep d q u)) = record st off c.
    Proof.
      intros Ha Hu H. destruct (g_early st) as [l|] eqn:Ee.
      - rewrite (proj1 Ha l Ee u Hu). unfold record. rewrite Ee. reflexivity.
      - destruct H as [->|H]; [reflexivity|contradiction].
    Qed.

    Lemma pend_child st st' q off c u : AcceptOk st q -> unit_ok u -> PendOk st st' (dstep d q u) ->
      pend_inv st' (dstep d q u) (off + 1) (record st off c).
    Proof.
      intros Ha Hu Hp Ee' Ea'. rewrite N.add_sub. apply (record_keeps st q off c u Ha Hu).
      destruct (g_early st) as [l|] eqn:Ee; [right; discriminate|left; exact (Hp Ee Ee' Ea')].
    Qed.

    (* the side conditions on off keep the walk away from the root test of at_eoi, which fires at off = start *)
    Lemma at_eoi_scan start hops s q off c st :
      InV s q -> gfind g s = Some st -> pend_inv st q off c ->
      (s = g_root g -> off <> start) -> start <= off ->
      exists off', at_eoi g false start (S hops) s off c
                   = Acted (upd (upd c (off - 1) (win d q)) off (win d (dstep d q UEoi))) off'.
    Proof.
      intros HV Hst Hp Hroot Hle. destruct (pair_state s q st HV Hst) as [Ha [_ Heoi]].
      rewrite <- (record_next st q off c UEoi Ha Hp I), (at_eoi_oneshot g start (S hops) s off c st Hst Hroot).
      unfold EoiOk in Heoi. destruct (g_eoi st) as [t|].
      - (* the end-of-input edge leads to a terminal state, which acts *)
        destruct Heoi as [st' [Est' [HVt [[Eeoi Eearly] Hpend]]]].
        destruct (pair_state t _ st' HVt Est') as [Ha' _].
        rewrite (at_eoi_oneshot g start hops t (off + 1) _ st' Est'), Eeoi by (intros _; lia).
        exists (off + 1).
        rewrite (record_eff st' _ (off + 1) _ Ha' (pend_child st st' q off c UEoi Ha I Hpend) Eearly), N.add_sub.
        reflexivity.
      - exists off. f_equal. symmetry. exact (record_keeps st q off c UEoi Ha I Heoi).
    Qed.

    Lemma walk_scan_abs start hops : forall rest s q off c st,
      bytes_ok rest -> InV s q -> gfind g s = Some st -> pend_inv st q off c ->
      (rest = [] -> s = g_root g -> off <> start) -> start <= off ->
      exists off', walk g false start (S hops) rest s off c
                   = Acted (scan d q rest off (upd c (off - 1) (win d q))) off'.
    Proof.
      induction rest as [|b rest IH]; intros s q off c st Hw HV Hst Hp Hroot Hle.
      - exact (at_eoi_scan start hops s q off c st HV Hst Hp (Hroot eq_refl) Hle).
      - apply Forall_cons_iff in Hw as [Hb Hw'].
        destruct (pair_state s q st HV Hst) as [Ha [Hbytes _]].
        specialize (Hbytes b Hb). unfold ByteOk in Hbytes.
        cbn [walk scan]. rewrite Hst, <- (record_next st q off c (UB b) Ha Hp Hb).
        destruct (edge_first (g_edges st) b) as [t|].
        + destruct Hbytes as [st' [Est' [HVt Hpend]]].
          destruct (IH t _ (off + 1) (record st off c) st' Hw' HVt Est' (pend_child st st' q off c (UB b) Ha Hb Hpend))
            as [o Ho]; [intros; lia|lia|].
          exists o. rewrite Ho, N.add_sub. reflexivity.
        + (* no edge: the attempt stops; nothing is lost *)
          destruct Hbytes as [HD Hw0]. exists off. f_equal.
          rewrite (scan_not_live d rest _ (off + 1) _ Hw' HD). symmetry. exact (record_keeps st q off c (UB b) Ha Hb Hw0).
    Qed.

    Lemma root_scan start hops rest :
      InV (g_root g) (d_start d) -> dmatch d (d_start d) = [] -> bytes_ok rest -> rest <> [] ->
      exists off, walk g false start (S hops) rest (g_root g) start None = Acted (scan d (d_start d) rest start None) off.
    Proof.
      intros Hroot Hs0 Hw Hne. destruct (Hinv _ _ Hroot) as [st [Est _]].
      assert (Hp : pend_inv st (d_start d) start None) by (intros _ _; rewrite (win_nomatch d _ Hs0); reflexivity).
      destruct (walk_scan_abs start hops rest _ _ start None st Hw Hroot Est Hp) as [off Hoff]; [contradiction|lia|].
      rewrite (win_nomatch d _ Hs0) in Hoff. exists off. exact Hoff.
    Qed.
  End Abs.

  Section Sim.
    Variables (V : pairing) (D : pset).
    Hypothesis Hsim : sim_ok d g V D = true.

    Lemma sim_ok_spec : inV V (g_root g) (d_start d) = true /\ dead_ok d D = true /\
      forall s q, inV V s q = true -> pair_ok d g V D s q = true.
    Proof.
      unfold sim_ok in Hsim. apply andb_prop in Hsim as [H H3]. apply andb_prop in H as [H1 H2].
      exact (conj H1 (conj H2 (fun s q => forallb_inV _ V s q H3))).
    Qed.

    Lemma sim_root : inV V (g_root g) (d_start d) = true.
    Proof. exact (proj1 sim_ok_spec). Qed.

    Lemma not_live_D q : pmem q D = true -> ~ Live d q.
    Proof. exact (dead_ok_sound d D (proj1 (proj2 sim_ok_spec)) q). Qed.

    Lemma pending_ok_spec st st' q' : pending_ok d st st' q' = true -> PendOk st st' q'.
    Proof.
      unfold pending_ok. intros H Ee Ee' Ea'. rewrite Ee, Ee', Ea' in H. apply win_none_true, H.
    Qed.

    Lemma terminal_spec t st : gfind g t = Some st -> terminal g t = true -> TerminalSt st.
    Proof.
      unfold terminal. intros -> H. apply andb_prop in H as [H H3]. apply andb_prop in H as [_ H2].
      split; apply is_none_true; assumption.
    Qed.

    Lemma no_win_or_early_spec st q' :
      win_none (win d q') || negb (is_none (g_early st)) = true -> win d q' = WNone \/ g_early st <> None.
    Proof. intros H. apply orb_prop in H as [H|H]; [left; apply win_none_true, H|right; apply is_none_false, H]. Qed.

    Lemma byte_ok_spec st q b : Cert.byte_ok d g V D st q b = true -> ByteOk (paired V) st q b.
    Proof.
      unfold Cert.byte_ok, ByteOk. destruct (edge_first (g_edges st) b) as [t|].
      - destruct (gfind g t) as [st'|]; [|discriminate]. intros H. apply andb_prop in H as [H1 H2].
        exists st'. split; [reflexivity|]. split; [exact H1|exact (pending_ok_spec _ _ _ H2)].
      - intros H. apply andb_prop in H as [H1 H2]. split; [exact (not_live_D _ H1)|exact (no_win_or_early_spec _ _ H2)].
    Qed.

    Lemma eoi_ok_spec st q : eoi_ok d g V st q = true -> EoiOk (paired V) st q.
    Proof.
      unfold eoi_ok, EoiOk. destruct (g_eoi st) as [t|]; [|apply no_win_or_early_spec].
      destruct (gfind g t) as [st'|] eqn:Est'; [|discriminate]. intros H.
      apply andb_prop in H as [H H3]. apply andb_prop in H as [H1 H2].
      exists st'. split; [reflexivity|]. split; [exact H1|].
      split; [exact (terminal_spec t st' Est' H2)|exact (pending_ok_spec _ _ _ H3)].
    Qed.

    Lemma sim_pair_ok s q : inV V s q = true -> PairOk (paired V) s q.
    Proof.
      intros HV. generalize (proj2 (proj2 sim_ok_spec) s q HV). unfold pair_ok.
      destruct (gfind g s) as [st|] eqn:Est; [|discriminate]. intros H.
      apply andb_prop in H as [H He]. apply andb_prop in H as [Hr Hb].
      exists st. split; [exact Est|]. split; [split|split].
      - intros l El u Hu. rewrite El in Hr. apply win_is_true. exact (proj1 (forallb_units _) Hr u Hu).
      - intros l En Ea. rewrite En, Ea in Hr. apply win_is_true, Hr.
      - intros b Hbk. exact (byte_ok_spec st q b (proj1 (forallb_bytes _) Hb b Hbk)).
      - exact (eoi_ok_spec st q He).
    Qed.

    Lemma attempt_nil start : attempt_ref g false start [] = RetNone false.
    Proof.
      destruct (sim_pair_ok _ _ sim_root) as [st [Est _]]. unfold attempt_ref. cbn [walk]. rewrite at_eoi_eq, Est.
      rewrite andb_false_r, Pos.eqb_refl, N.eqb_refl. reflexivity.
    Qed.

    (* walk_scan_abs for the pairing of the certificate; the attempt-level results go through root_scan *)
    Lemma walk_scan start hops : forall rest s q off c st,
      bytes_ok rest ->
      inV V s q = true -> gfind g s = Some st -> pend_inv st q off c ->
      (rest = [] -> s = g_root g -> off <> start) -> start <= off ->
      exists off', walk g false start (S (S hops)) rest s off c
                   = Acted (scan d q rest off (upd c (off - 1) (win d q))) off'.
    Proof. exact (walk_scan_abs (paired V) sim_pair_ok start (S hops)). Qed.
  End Sim.
End Attempt.
