(* Property C16 — code generation is deterministic.
   The reason is "sorted + permutation => unique" (Base/Sorted.v).  Hash-container iteration is modelled as an
   arbitrary permutation; every place where the generator iterates one sorts the collected items
   before anything order-dependent happens (graph/mod.rs:132-135, 499-501; generator/mod.rs:92-109,
   354-357; fork.rs:172-175) — that these are all the places is checked by running the real code
   under fresh hash seeds (correspondence K9). *)
From Coq Require Import NArith Permutation Sorting.Sorted.
From LogosV Require Import Base.Sorted.
Local Open Scope N_scope.

(* the shape of every "collect from a hash container, then sort by a distinct key" site: m1, m2 are two
   iteration orders of the same container, r1, r2 what sort_unstable_by_key makes of them *)
Theorem C16_collect_then_sort_deterministic : forall (A : Type) (key : A -> N) m1 m2 r1 r2,
  Permutation m1 m2 ->
  Permutation r1 m1 -> StronglySorted (klt A key) r1 ->
  Permutation r2 m2 -> StronglySorted (klt A key) r2 ->
  r1 = r2.
Proof.
  intros A key m1 m2 r1 r2 Pm P1 S1 P2 S2. apply (sorted_perm_unique (klt A key)); [|exact S1|exact S2|].
  - unfold klt. intros a b H1 H2. apply N.lt_asymm in H1. contradiction.
  - rewrite P1, Pm. symmetry. exact P2.
Qed.

(* the same for sorts of the elements themselves with possible duplicates (graph.errors.sort_unstable()) *)
Theorem C16_sorted_with_duplicates_unique : forall l1 l2 : list N,
  StronglySorted N.le l1 -> StronglySorted N.le l2 -> Permutation l1 l2 -> l1 = l2.
Proof. exact (sorted_perm_unique N.le N.le_antisymm). Qed.
