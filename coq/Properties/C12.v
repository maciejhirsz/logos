(* Property C12 — str mode and byte mode agree on valid UTF-8 input.
   The two modes run the same graph (checked per definition: the captured graphs are equal) and
   differ only in find_boundary. *)
From Coq Require Import List NArith FMapPositive Lia.
From LogosV Require Import Base.Utf8 Engine.Model Engine.Cert Engine.CertProofs Engine.Run Engine.Utf8Lex Engine.Utf8Stream Engine.Prog Engine.StreamProg.
Import ListNotations.
Local Open Scope N_scope.

(* one call of next() from the same position in the two modes: same skipped regions, same Ok item,
   or an error with the same start whose end is each mode's rounding of the same raw end *)
Theorem C12_next_fb_independent : forall attempt act fb1 fb2 (w : list byte) p fuel start,
  fst (next_from attempt act fb1 w p fuel start) = fst (next_from attempt act fb2 w p fuel start) /\
  out_rel fb1 fb2 (snd (next_from attempt act fb1 w p fuel start)) (snd (next_from attempt act fb2 w p fuel start)).
Proof. exact next_fb_independent. Qed.

(* in byte mode, an attempt starting inside a character dies on its first byte: a one-byte error.  (Hence the
   bytes between the raw error end and the next char boundary are covered by one-byte errors, the same bytes
   the str-mode error covers: Utf8Stream.bytes_gap, used for C12_streams_agree.) *)
Theorem C12_inside_char_error : forall d g V R D P,
  dfa_ok d = true -> sim_ok d g V D = true -> exact_ok d g V R D = true ->
  utf8_ok d P = true -> utf8_strict_ok d P D = true ->
  forall act (w : list byte) start b,
  nth_error w (N.to_nat start) = Some b -> byte_ok b -> ustep U0 b = URej ->
  forall fuel, next_from (attempt_ref g) act (fun i => i) w false (S fuel) start
               = ([], Yield (Item false None start (start + 1)) (start + 1)).
Proof. exact inside_char_error. Qed.

(* Stream level: the whole lexing of the same text in the two modes.  With every default error item cut
   into its bytes (split_errs), the two streams - skipped matches, Ok items, callback errors, error
   bytes, in order - are equal.  (No assumption on w beyond being bytes: on text that is not valid UTF-8
   the statement compares the byte lexer with a lexer that rounds error ends past continuation bytes.) *)
Theorem C12_streams_agree : forall d g V R D P,
  dfa_ok d = true -> sim_ok d g V D = true -> exact_ok d g V R D = true ->
  utf8_ok d P = true -> utf8_strict_ok d P D = true ->
  forall act (w : list byte), bytes_ok w ->
  (forall l s e, s < e -> e <= N.of_nat (length w) -> e + snd (act l s e) <= N.of_nat (length w)) ->
  split_errs (fst (lex_all (attempt_ref g) act (fb_str w) w false))
  = split_errs (fst (lex_all (attempt_ref g) act (fun i => i) w false)).
Proof.
  intros d g V R D P Hok Hsim Hex HU HS act w Hw Hact. unfold lex_all.
  apply (agree_from d g V R D P Hok Hsim Hex HU HS act w Hw Hact); lia.
Qed.

(* ... and so do the streams of the program the code generator emits *)
Theorem C12_emitted_streams_agree : forall U g p,
  prog_ok g p = true -> wf_graph g = true ->
  forall d V R D, dfa_ok d = true -> sim_ok d g V D = true -> exact_ok d g V R D = true ->
  forall P act (w : list byte), utf8_ok d P = true -> utf8_strict_ok d P D = true -> bytes_ok w ->
  (forall l s e, s < e -> e <= N.of_nat (length w) -> e + snd (act l s e) <= N.of_nat (length w)) ->
  split_errs (fst (lex_all (fun ip s r => fst (attempt_prog U p (PositiveMap.cardinal (g_states g)) ip s r)) act (fb_str w) w false))
  = split_errs (fst (lex_all (fun ip s r => fst (attempt_prog U p (PositiveMap.cardinal (g_states g)) ip s r)) act (fun i => i) w false)).
Proof.
  intros U g p Hp Hwf d V R D Hok Hsim Hex P act w HU HS Hw Hact.
  rewrite !(emitted_stream U g p Hp Hwf act _ w false Hw).
  exact (C12_streams_agree d g V R D P Hok Hsim Hex HU HS act w Hw Hact).
Qed.
