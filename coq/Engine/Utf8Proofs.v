(* Engine/Utf8Proofs.v — matches of a certified DFA end on char boundaries (C04, C12). *)
From Coq Require Import List Arith NArith Bool FMapPositive Lia.
From LogosV Require Import Base.Utf8 Engine.Model Engine.Cert Engine.CertProofs Engine.SpecProofs.
Import ListNotations.
Local Open Scope N_scope.

Lemma ustate_eqb_eq a b : ustate_eqb a b = true <-> a = b.
Proof. split; [destruct a, b; (reflexivity || discriminate)|intros ->; destruct b; reflexivity]. Qed.

Lemma urun_app u a b : urun u (a ++ b) = urun (urun u a) b.
Proof. revert u. induction a as [|x a IH]; intros u; [reflexivity|apply IH]. Qed.

Lemma urun_rej w : urun URej w = URej.
Proof. induction w as [|b w IH]; [reflexivity|exact IH]. Qed.

Lemma inr_iff b lo hi : inr b lo hi = true <-> lo <= b <= hi.
Proof. unfold inr. rewrite andb_true_iff, !N.leb_le. reflexivity. Qed.

(* the side conditions are booleans so that, between numerals, [reflexivity] proves them *)
Lemma inr_sub b lo hi lo' hi' :
  inr b lo hi = true -> (lo' <=? lo) && (hi <=? hi') = true -> inr b lo' hi' = true.
Proof.
  intros H Hs. apply inr_iff in H as [H1 H2]. apply andb_prop in Hs as [H3 H4]. apply N.leb_le in H3, H4.
  apply inr_iff. split; eapply N.le_trans; eassumption.
Qed.

Lemma inr_disj b lo hi lo' hi' :
  inr b lo hi = true -> (hi' <? lo) || (hi <? lo') = true -> inr b lo' hi' = false.
Proof.
  intros H Hs. apply inr_iff in H as [H1 H2]. apply not_true_is_false. intros H'. apply inr_iff in H' as [H3 H4].
  apply orb_prop in Hs as [Hs|Hs]; apply N.ltb_lt in Hs.
  - exact (N.lt_irrefl _ (N.le_lt_trans _ _ _ (N.le_trans _ _ _ H1 H4) Hs)).
  - exact (N.lt_irrefl _ (N.le_lt_trans _ _ _ (N.le_trans _ _ _ H3 H2) Hs)).
Qed.

Lemma eqb_inr b c : (b =? c) = inr b c c.
Proof.
  apply eq_true_iff_eq. rewrite N.eqb_eq, inr_iff. split.
  - intros ->. split; apply N.le_refl.
  - intros [H1 H2]. exact (N.le_antisymm _ _ H2 H1).
Qed.

Lemma is_cont8_inr b : is_cont8 b = inr b 128 191.
Proof.
  unfold is_cont8, inr. f_equal. apply eq_true_iff_eq. rewrite N.ltb_lt, N.leb_le. exact (N.lt_succ_r b 191).
Qed.

(* the table: its first row has no range that meets 80..BF, every other row only ranges inside it *)
Lemma ustep_U0_cont b : is_cont8 b = true -> ustep U0 b = URej.
Proof.
  rewrite is_cont8_inr. intros H. cbn [ustep].
  (* row U0 of ustep: four equality tests, nine ranges *)
  rewrite 4 eqb_inr, 9 (inr_disj b _ _ _ _ H) by reflexivity. reflexivity.
Qed.

Lemma ustep_cont u b : ustep u b <> URej -> (u = U0 <-> is_cont8 b = false).
Proof.
  intros Hn. split.
  - intros ->. destruct (is_cont8 b) eqn:E; [|reflexivity]. destruct (Hn (ustep_U0_cont b E)).
  - rewrite is_cont8_inr. intros Hc. destruct u; [reflexivity|..]; exfalso; cbn [ustep] in Hn.
    1-7: destruct (inr b _ _) eqn:E in Hn; [|exact (Hn eq_refl)];
         rewrite (inr_sub b _ _ 128 191 E eq_refl) in Hc; discriminate.
    exact (Hn eq_refl).
Qed.

Lemma forallb_inPU (f : qid -> ustate -> bool) P q u :
  forallb (fun kv => forallb (f (fst kv)) (snd kv)) (PositiveMap.elements P) = true ->
  inPU P q u = true -> f q u = true.
Proof. exact (forallb_pairs ustate_eqb f P q u (fun y => proj1 (ustate_eqb_eq u y))). Qed.

Section Product.
  Variables (d : dfa) (P : upairs).
  Hypothesis HU : utf8_ok d P = true.

  Lemma utf8_ok_spec : inPU P (d_start d) U0 = true /\
    forall q u b, inPU P q u = true -> byte_ok b -> ustep u b <> URej ->
      inPU P (dstep d q (UB b)) (ustep u b) = true /\ (dmatch d (dstep d q (UB b)) <> [] -> u = U0).
  Proof.
    unfold utf8_ok in HU. apply andb_prop in HU as [H0 H]. split; [exact H0|]. intros q u b Hin Hb Hn.
    (* utf8_pair is unfolded in the goal: unfolded in a hypothesis, the kernel would evaluate its all_bytes *)
    generalize (forallb_inPU _ P q u H Hin). unfold utf8_pair. intros Hp.
    apply (proj1 (forallb_bytes _)) with (b := b) in Hp; [|exact Hb].
    destruct (ustate_eqb (ustep u b) URej) eqn:E; [apply ustate_eqb_eq in E; contradiction|].
    apply andb_prop in Hp as [Ha Hm]. split; [exact Ha|].
    intros Hne. apply orb_prop in Hm as [Hm|Hm]; [apply nomatch_true in Hm; contradiction|].
    apply ustate_eqb_eq. exact Hm.
  Qed.

  Lemma pu_start : inPU P (d_start d) U0 = true.
  Proof. exact (proj1 utf8_ok_spec). Qed.

  (* the certificate is an invariant of the two automata run side by side *)
  Lemma pu_run : forall v q u, bytes_ok v -> inPU P q u = true -> urun u v <> URej ->
    inPU P (drun d q v) (urun u v) = true.
  Proof.
    induction v as [|b v IH]; intros q u Hv Hin Hn; [exact Hin|].
    apply Forall_cons_iff in Hv as [Hb Hv']. cbn [urun drun] in *.
    apply (IH _ _ Hv'); [|exact Hn]. apply (proj2 utf8_ok_spec q u b Hin Hb).
    intros E. rewrite E, urun_rej in Hn. contradiction.
  Qed.
End Product.

Lemma pu_strict d P D q u b : utf8_strict_ok d P D = true -> inPU P q u = true -> byte_ok b ->
  ustep u b = URej -> pmem (dstep d q (UB b)) D = true.
Proof.
  intros HS Hin Hb Hr. generalize (forallb_inPU _ P q u HS Hin). unfold utf8_strict_pair. intros Hp.
  apply (proj1 (forallb_bytes _)) with (b := b) in Hp; [|exact Hb]. rewrite Hr in Hp. exact Hp.
Qed.

Definition Bnd (w : list N) (i : nat) : Prop := urun U0 (firstn i w) = U0.

Lemma firstn_S_nth {A} (w : list A) n b : nth_error w n = Some b -> firstn (S n) w = firstn n w ++ [b].
Proof.
  revert w. induction n as [|n IH]; intros [|x w] E; try discriminate.
  - injection E as ->. reflexivity.
  - cbn [firstn app] in *. rewrite (IH w E). reflexivity.
Qed.

Lemma valid_prefix_not_rej w i : utf8_valid w = true -> urun U0 (firstn i w) <> URej.
Proof.
  unfold utf8_valid. intros H E. apply ustate_eqb_eq in H.
  rewrite <- (firstn_skipn i w) in H. rewrite urun_app, E, urun_rej in H. discriminate.
Qed.

Lemma bnd_end w : utf8_valid w = true -> Bnd w (length w).
Proof. intros Hv. unfold Bnd. rewrite firstn_all. apply ustate_eqb_eq. exact Hv. Qed.

Lemma bnd_nth w i b : utf8_valid w = true -> nth_error w i = Some b -> (Bnd w i <-> is_cont8 b = false).
Proof.
  intros Hv E. apply ustep_cont. pose proof (valid_prefix_not_rej w (S i) Hv) as Hn.
  rewrite (firstn_S_nth _ _ _ E), urun_app in Hn. exact Hn.
Qed.

Lemma bnd_add w p n : Bnd w p -> urun U0 (firstn (p + n) w) = urun U0 (firstn n (skipn p w)).
Proof.
  intros Hp. rewrite <- (firstn_skipn p (firstn (p + n) w)), urun_app, firstn_firstn, Nat.min_l, Hp, <- firstn_skipn_comm by lia.
  reflexivity.
Qed.

Theorem match_ends_on_boundary d P w p j :
  utf8_ok d P = true -> bytes_ok w -> utf8_valid w = true ->
  Bnd w p -> (p + j <= length w)%nat ->
  dmatch d (mstate d (d_start d) (skipn p w) j) <> [] -> Bnd w (p + j).
Proof.
  intros HU Hw Hv Hp Hlen Hm.
  destruct (nth_error (skipn p w) j) as [b|] eqn:E.
  - (* a byte follows the match: the pair reached before it steps on that byte to a matching state *)
    unfold Bnd. rewrite (bnd_add w p j Hp).
    pose proof (valid_prefix_not_rej w (p + S j) Hv) as Hn.
    rewrite (bnd_add w p (S j) Hp), (firstn_S_nth _ _ _ E), urun_app in Hn.
    pose proof (bytes_ok_skipn p w Hw) as Hr.
    assert (Hb : byte_ok b) by exact (proj1 (Forall_forall _ _) Hr b (nth_error_In _ _ E)).
    unfold mstate, unit_at in Hm. rewrite E in Hm.
    refine (proj2 (proj2 (utf8_ok_spec d P HU) _ _ b _ Hb Hn) Hm).
    apply (pu_run d P HU _ _ _ (bytes_ok_firstn j _ Hr) (pu_start d P HU)).
    intros E'. rewrite E' in Hn. exact (Hn eq_refl).
  - (* the match reaches the end of the input: the whole string is valid *)
    apply nth_error_None in E. rewrite skipn_length in E.
    replace (p + j)%nat with (length w) by lia. exact (bnd_end w Hv).
Qed.
