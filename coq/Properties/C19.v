(* Property C19 — the derive never panics and rejects what it cannot implement.
   The empty-match and UTF-8 rejections are decided on the captured DFA (C03, C04); undefined
   subpatterns by C11; here: the panic-relevant decision skeleton and the greedy-dot test. *)
From Coq Require Import List NArith Bool.
From LogosV Require Import Regex.Re Regex.ReProofs Regex.Greedy Regex.GreedyProofs Front.Accept.
Import ListNotations.

Theorem C19_never_panics : forall es errs, run true es errs <> Panicked.
Proof. exact never_panics. Qed.
(* named, empty and multi-field variants are rejected, never mis-compiled *)
Theorem C19_bad_variant_rejected : forall s es1 es2, (s = Named \/ s = Tuple 0 \/ exists n, s = Tuple (S (S n))) ->
  run true (es1 ++ EVariant s :: es2) false = Rejected.
Proof.
  intros s es1 es2 Hs. rewrite run_fixed, existsb_app. cbn [existsb orb].
  replace (step_reports (EVariant s)) with true by (destruct Hs as [->|[->|[n ->]]]; reflexivity).
  rewrite orb_true_r. reflexivity.
Qed.
(* the greedy-dot test finds an unbounded greedy dot repetition at any depth, and only those *)
Theorem C19_greedy_complete : forall r, HasGreedyDot r -> greedy r = true.
Proof. exact greedy_complete. Qed.
Theorem C19_greedy_sound : forall r, greedy r = true -> HasGreedyDot r.
Proof.
  induction r as [|bs|rs|rs| |mn mx g sub IH|s IH|rs IH|rs IH] using re_ind'; cbn [greedy]; intros H; try discriminate.
  - apply orb_prop in H as [H|H]; [|exact (G_rep _ _ _ _ (IH H))].
    unfold rep_is_greedy_dot in H. apply andb_prop in H as [H Hg]. apply andb_prop in H as [Hd Hm].
    destruct mx; [discriminate|]. rewrite Hg. apply G_here. exact Hd.
  - exact (G_cap s (IH H)).
  - apply existsb_exists in H as [x [Hin Hx]]. rewrite Forall_forall in IH. exact (G_cat rs x Hin (IH x Hin Hx)).
  - apply existsb_exists in H as [x [Hin Hx]]. rewrite Forall_forall in IH. exact (G_alt rs x Hin (IH x Hin Hx)).
Qed.
(* regression lemmas: the code as it was panics (findings F6, F7) *)
Theorem C19_old_panics_on_empty_tuple : run false [EVariant (Tuple 0)] false = Panicked.
Proof. reflexivity. Qed.
Theorem C19_old_panics_on_duplicate_callback : run false [EDupCallback false] false = Panicked.
Proof. reflexivity. Qed.
(* the function as it was misses a greedy dot below another repetition (finding F8): a dot-star nested under a plus *)
Theorem C19_greedy_old_refuted : exists r, HasGreedyDot r /\ greedy_old r = false.
Proof.
  exists (RRep 1 None true (RCap (RCat [RLit [97]; RRep 0 None true (RClassU [(0, 9); (11, 1114111)])])))%N.
  split.
  - apply G_rep, G_cap. eapply G_cat; [right; left; reflexivity|]. apply G_here. reflexivity.
  - reflexivity.
Qed.
(* after F8 only, a dot inside a capture group escapes (finding F9): (.) repeated by a star *)
Theorem C19_greedy_nocap_refuted : exists r, HasGreedyDot r /\ greedy_nocap r = false.
Proof.
  exists (RRep 0 None true (RCap (RClassU [(0, 9); (11, 1114111)])))%N.
  split.
  - apply G_here. reflexivity.
  - reflexivity.
Qed.

(* the saturating default-priority arithmetic stays within usize; regression lemma (finding F11): as it was, the
   product overflowed on (a{4294967295}){4294967295} - "attempt to multiply with overflow" in a build with overflow
   checks *)
Theorem C19_complexity_fits : forall r, lits_small r = true -> (complexity_sat r <= usize_max)%N.
Proof. intros r H. rewrite (complexity_sat_spec r H). apply sat_le. Qed.
Theorem C19_old_complexity_overflows : complexity_checked f11_witness = None /\ complexity_sat f11_witness = usize_max.
Proof. split; vm_compute; reflexivity. Qed.
