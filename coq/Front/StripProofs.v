(* Front/StripProofs.v — the repaired derive-list rewriting keeps exactly the paths that do not end
   in `Logos`, with the separators they had (C17). *)
From Coq Require Import List Arith Lia.
From LogosV Require Import Front.AttrParser Front.AttrProofs Front.Strip.
Import ListNotations.
Local Open Scope N_scope.

(* the paths with a separator between each two *)
Fixpoint render_paths (ps : list path) : list tok :=
  match ps with
  | [] => []
  | [p] => p
  | p :: r => p ++ TPunct comma false :: render_paths r
  end.

Definition path_ok (p : path) : Prop := comma_free p /\ p <> [].

Lemma render_paths_cons p ps :
  render_paths (p :: ps) = p ++ match ps with [] => [] | _ => TPunct comma false :: render_paths ps end.
Proof. destruct ps; [symmetry; apply app_nil_r|reflexivity]. Qed.

(* one path and what follows it: the separator was consumed iff something follows *)
Lemma split_paths_step fuel p tl rest : path_ok p -> item_follows tl rest ->
  split_paths (S fuel) (p ++ tl) = (p, match tl with [] => false | _ => true end) :: split_paths fuel rest.
Proof.
  intros [Hfree Hne] Htl. destruct p as [|t p]; [contradiction|].
  cbn [split_paths app]. change (t :: p ++ tl) with ((t :: p) ++ tl).
  rewrite (collect_tail_app (t :: p) tl rest Hfree (item_follows_tail tl rest Htl)).
  destruct Htl; [rewrite app_nil_r, Nat.ltb_irrefl; reflexivity|].
  rewrite (proj2 (Nat.ltb_lt _ _)); [reflexivity|]. rewrite app_length. cbn [length]. lia.
Qed.

Lemma split_paths_render : forall ps fuel, Forall path_ok ps -> (length (render_paths ps) < fuel)%nat ->
  split_paths fuel (render_paths ps) =
  match ps with [] => [] | _ => map (fun p => (p, true)) (removelast ps) ++ [(last ps [], false)] end.
Proof.
  intros ps fuel Hok. revert fuel. induction Hok as [|p ps Hp _ IH]; intros fuel Hf.
  - destruct fuel; reflexivity.
  - destruct fuel as [|fuel]; [inversion Hf|]. rewrite render_paths_cons in *.
    rewrite (split_paths_step fuel p _ (render_paths ps) Hp) by (destruct ps; constructor).
    rewrite IH.
    + destruct ps; reflexivity.
    + destruct Hp as [_ Hne]. rewrite app_length in Hf. destruct p; [contradiction|].
      destruct ps; cbn [length render_paths] in *; lia.
Qed.

(* the kept paths, with the separators they had *)
Theorem strip_derive_spec : forall ps, Forall path_ok ps -> ps <> [] ->
  strip_derive (render_paths ps) =
  render_pairs (filter (fun pr => negb (last_is_logos (fst pr)))
                       (map (fun p => (p, true)) (removelast ps) ++ [(last ps [], false)])).
Proof.
  intros ps Hok Hne. unfold strip_derive.
  rewrite (split_paths_render ps _ Hok (Nat.lt_succ_diag_r _)).
  destruct ps; [contradiction|reflexivity].
Qed.

Lemma render_pairs_paths ps q :
  render_pairs (map (fun p => (p, true)) ps ++ [(q, false)]) = render_paths (ps ++ [q]).
Proof.
  unfold render_pairs. induction ps as [|p ps IH]; cbn [map app flat_map fst snd].
  - rewrite !app_nil_r. reflexivity.
  - rewrite IH, <- app_assoc, render_paths_cons. destruct ps; reflexivity.
Qed.

Lemma filter_map_comm {A B} (f : A -> B) (keep : B -> bool) l :
  filter keep (map f l) = map f (filter (fun x => keep (f x)) l).
Proof.
  induction l as [|x l IH]; [reflexivity|]. cbn [map filter]. rewrite IH. destruct (keep (f x)); reflexivity.
Qed.
