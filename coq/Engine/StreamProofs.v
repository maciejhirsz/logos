(* Engine/StreamProofs.v — chunked feeding (C07): feeding the input in any sequence of growing buffers and
   finishing with an ordinary lexer reproduces the one-shot stream.  Holds for every graph if no run is
   Broken (by lex_prefix_stream at each buffer), which the certificate provides (Section Total). *)
From Coq Require Import List NArith Bool Lia.
From LogosV Require Import Engine.Model Engine.Cert Engine.CertProofs Engine.LexProofs Engine.PartialProofs.
Import ListNotations.
Local Open Scope N_scope.

Section Stream.
  Variable g : graph.
  Variable act : leaf -> N -> N -> action * N.
  Variable fbw : N -> N.              (* find_boundary of the whole input *)
  Variable w : list byte.

  Variable fbk : nat -> N -> N.        (* find_boundary of the prefix of length k *)

  (* Chunked feeding.  The buffer grows through the prefixes w[..k1], w[..k2], ...; each time the partial lexer is run
     until None and the next one resumes at the reported position; an ordinary lexer over the whole
     input finishes. *)
  Fixpoint chunked (ks : list nat) (start : N) : list region * outcome :=
    match ks with
    | [] => lex_from (attempt_ref g) act fbw w false (S (S (length w))) start
    | k :: ks' =>
        match lex_from (attempt_ref g) act (fbk k) (firstn k w) true (S (S (length (firstn k w)))) start with
        | (rs, Finished s _) => let (rs', fin) := chunked ks' s in (rs ++ rs', fin)
        | (rs, o) => (rs, o)
        end
    end.

  Hypothesis Hfbk : forall k i, i <= N.of_nat k -> fbk k i = fbw i.

  Theorem chunked_eq_oneshot : forall ks start rsW finW,
    Forall (fun k => (k <= length w)%nat) ks ->
    lex_from (attempt_ref g) act fbw w false (S (S (length w))) start = (rsW, finW) -> finW <> Broken ->
    forall rs fin, chunked ks start = (rs, fin) -> fin <> Broken ->
    (rs, fin) = (rsW, finW).
  Proof.
    induction ks as [|k ks IH]; intros start rsW finW Hks HW HnbW rs fin HC Hnb; cbn [chunked] in HC.
    - congruence.
    - apply Forall_cons_iff in Hks as [Hk Hks'].
      destruct (lex_from (attempt_ref g) act (fbk k) (firstn k w) true (S (S (length (firstn k w)))) start) as [rs1 o1] eqn:E1.
      destruct (lex_from_outcome _ _ _ _ _ _ _ _ _ E1) as [->|[s ->]]; [injection HC as _ <-; congruence|].
      destruct (lex_prefix_stream g act (fbk k) fbw w k Hk (Hfbk k) _ _ start rs1 s rsW finW E1 HW HnbW) as [rs3 [F3 [HF3 [-> HL]]]].
      pose proof (lex_from_mono (attempt_ref g) act fbw w false F3 (S (S (length w))) s rs3 finW (proj2 HF3) HL HnbW) as HL'.
      destruct (chunked ks s) as [rs' fin'] eqn:EC. injection HC as <- <-.
      injection (IH s rs3 finW Hks' HL' HnbW rs' fin' EC Hnb) as -> ->. reflexivity.
  Qed.
End Stream.

Definition good_stop (r : stop) : Prop := match r with Stuck | Diverged => False | _ => True end.

Section Total.
  Variables (d : dfa) (g : graph) (V : pairing) (R : rankmap) (D : pset).
  Hypothesis Hok : dfa_ok d = true.
  Hypothesis Hsim : sim_ok d g V D = true.
  Hypothesis Hex : exact_ok d g V R D = true.

  (* partial mode never follows an end-of-input edge: no hop fuel is used *)
  Lemma walk_partial_good start hops : forall rest s q off c, bytes_ok rest -> inV V s q = true ->
    good_stop (walk g true start hops rest s off c).
  Proof.
    induction rest as [|b rest IH]; intros s q off c Hb HV; cbn [walk];
      destruct (sim_pair_ok d g V D Hsim s q HV) as [st [Hst [_ [Hbyte _]]]].
    - rewrite at_eoi_partial, Hst. destruct (partial_mode_test st); [exact I|]. destruct (_ && _); exact I.
    - rewrite Hst. apply Forall_cons_iff in Hb as [Hb1 Hb2].
      specialize (Hbyte b Hb1). unfold ByteOk in Hbyte.
      destruct (edge_first (g_edges st) b) as [t|]; [|exact I].
      destruct Hbyte as [st' [_ [Hin _]]]. exact (IH t _ _ _ Hb2 Hin).
  Qed.

  Lemma attempt_partial_good start rest : bytes_ok rest -> good_stop (attempt_ref g true start rest).
  Proof. intros Hb. exact (walk_partial_good start _ rest _ (d_start d) _ _ Hb (sim_root d g V D Hsim)). Qed.

  Variable act : leaf -> N -> N -> action * N.
  Variable w : list byte.
  Hypothesis Hw : bytes_ok w.

  Section Prefix.
    Variable k : nat.
    Hypothesis Hk : (k <= length w)%nat.
    Variable fbp : N -> N.
    Hypothesis fbp_ok : forall i, i <= N.of_nat k -> i <= fbp i.

    Lemma advance_partial start e : Advance (attempt_ref g) act fbp (firstn k w) true start e ->
      start < e /\ start < N.of_nat k.
    Proof.
      intros [c [off [Ea ->]]]. destruct (attempt_prefix g w k Hk start c off Ea) as [Hfull [Hs Hoff]].
      split; [|exact Hs]. destruct c as [[l e]|].
      - (* a match: the one the ordinary lexer finds over w *)
        destruct (acted_shape d g V R D Hok Hsim Hex w Hw start _ off Hfull) as [_ [_ Hc]].
        exact (N.lt_lt_add_r _ _ _ (proj1 Hc)).
      - destruct (nmax_bounds off start _ Hoff Hs) as [Hse Hm]. exact (N.lt_le_trans _ _ _ Hse (fbp_ok _ Hm)).
    Qed.

    Lemma next_partial_ends : forall fuel start,
      (N.to_nat (N.of_nat k - start) < fuel)%nat ->
      match snd (next_from (attempt_ref g) act fbp (firstn k w) true fuel start) with
      | Yield _ e => start < e /\ start < N.of_nat k
      | Finished _ _ => True
      | Broken => False
      end.
    Proof.
      induction fuel as [|fuel IH]; intros start Hf; [lia|]. rewrite next_from_S.
      destruct (turn_spec (attempt_ref g) act fbp (firstn k w) true start) as [l e Ha|ok lo e Ha|r E|E].
      - destruct (advance_partial start e Ha) as [Hse Hsk]. specialize (IH e ltac:(lia)).
        destruct (next_from (attempt_ref g) act fbp (firstn k w) true fuel e) as [sk [it e'|a b|]]; cbn [snd] in *; [lia|exact I|exact IH].
      - exact (advance_partial start e Ha).
      - exact I.
      - pose proof (attempt_partial_good start _ (bytes_ok_skipn (N.to_nat start) _ (bytes_ok_firstn k w Hw))) as Hg.
        destruct E as [E|E]; rewrite E in Hg; exact Hg.
    Qed.

    Lemma lex_partial_not_broken : forall fuel start,
      (N.to_nat (N.of_nat k - start) < fuel)%nat ->
      snd (lex_from (attempt_ref g) act fbp (firstn k w) true fuel start) <> Broken.
    Proof.
      induction fuel as [|fuel IH]; intros start Hf; [lia|]. cbn [lex_from]. rewrite (firstn_length_le w Hk).
      pose proof (next_partial_ends (S k) start ltac:(lia)) as Hn.
      destruct (next_from (attempt_ref g) act fbp (firstn k w) true (S k) start) as [sk [it e|a b|]];
        cbn [snd] in *; [|discriminate|destruct Hn].
      specialize (IH e ltac:(lia)).
      destruct (lex_from (attempt_ref g) act fbp (firstn k w) true fuel e) as [rs fin]. exact IH.
    Qed.
  End Prefix.

  Variables (fbw : N -> N) (fbk : nat -> N -> N).
  Hypothesis act_ok : forall l s e, s < e -> e <= N.of_nat (length w) -> e + snd (act l s e) <= N.of_nat (length w).
  Hypothesis fb_ok : forall i, i <= N.of_nat (length w) -> i <= fbw i /\ fbw i <= N.of_nat (length w).
  Hypothesis Hfbk : forall k i, i <= N.of_nat k -> fbk k i = fbw i.

  Lemma chunked_not_broken : forall ks start,
    Forall (fun k => (k <= length w)%nat) ks -> snd (chunked g act fbw w fbk ks start) <> Broken.
  Proof.
    induction ks as [|k ks IH]; intros start Hks; cbn [chunked].
    - apply (lex_not_broken d g V R D Hok Hsim Hex act fbw w Hw act_ok fb_ok). lia.
    - apply Forall_cons_iff in Hks as [Hk Hks']. rewrite (firstn_length_le w Hk).
      assert (Hfbp : forall i, i <= N.of_nat k -> i <= fbk k i).
      { intros i Hi. rewrite (Hfbk k i Hi). apply fb_ok. lia. }
      pose proof (lex_partial_not_broken k Hk (fbk k) Hfbp (S (S k)) start ltac:(lia)) as Hnb.
      destruct (lex_from (attempt_ref g) act (fbk k) (firstn k w) true (S (S k)) start) as [rs1 o1] eqn:E1.
      destruct (lex_from_outcome _ _ _ _ _ _ _ _ _ E1) as [->|[s ->]]; [destruct (Hnb eq_refl)|].
      specialize (IH s Hks'). destruct (chunked g act fbw w fbk ks s) as [rs' fin]. exact IH.
  Qed.
End Total.
