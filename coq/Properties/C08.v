(* Property C08 — equal-priority overlaps are compile errors, never silent choices. *)
From Coq Require Import List FMapPositive.
From LogosV Require Import Engine.Model Engine.Cert Engine.CertProofs Engine.SpecProofs.

(* a DFA state's winner is a tie exactly when two different leaves share the greatest priority
   among the leaves matching there *)
Theorem C08_tie_iff_shared : forall d q, NoDup (dmatch d q) ->
  (win d q = WTie <-> SharedMax (prio d) (dmatch d q)).
Proof. exact tie_iff_shared. Qed.

(* accepted (dfa_ok: no tie state) => on no input does the lexer have to choose between
   equal-priority patterns *)
Theorem C08_no_silent_choice : forall d, dfa_ok d = true ->
  forall (rest : list byte) j, ~ SharedMax (prio d) (dmatch d (mstate d (d_start d) rest j)).
Proof.
  intros d Hok rest j HS.
  apply (dfa_no_tie d Hok (mstate d (d_start d) rest j)). exact (proj2 (tie_iff_shared d _ (dfa_ok_nodup d Hok _)) HS).
Qed.

(* a tie state with a validated reachability hint yields a concrete string that is matched by two
   patterns sharing the top priority: the derive's error is never spurious *)
Theorem C08_tie_has_ambiguous_string : forall d H, reach_ok d H = true ->
  forall q e, NoDup (dmatch d q) -> PositiveMap.find q H = Some e -> win d q = WTie ->
  exists rest j, bytes_ok rest /\ (j <= length rest)%nat /\
                 SharedMax (prio d) (dmatch d (mstate d (d_start d) rest j)).
Proof.
  intros d H HR q e Hnd Hf Ht. destruct (reached_has_string d H HR q e Hf) as [rest [j [Hb [Hj Hm]]]].
  exists rest, j. split; [exact Hb|]. split; [exact Hj|]. rewrite Hm. exact (proj1 (tie_iff_shared d q Hnd) Ht).
Qed.
