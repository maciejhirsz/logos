(* Property C01 — longest match wins; ties broken by priority (maximal munch). *)
From Coq Require Import List NArith FMapPositive.
From LogosV Require Import Engine.Model Engine.Cert Engine.GraphBuild Engine.CertProofs Engine.SpecProofs Engine.StopProofs Engine.LexProofs Engine.BuildProofs Engine.GsimProofs Engine.ByteClass Engine.ByteClassProofs Engine.Dedup Engine.DedupProofs Engine.DedupBuild Engine.Prog Engine.ProgProofs.
Local Open Scope N_scope.

(* For every DFA d and graph g related by a valid certificate, every input w and every attempt
   start: the reference semantics of the generated code records exactly the longest non-empty
   match and the unique highest-priority leaf among the leaves matching that longest prefix
   (or nothing when no non-empty prefix matches). *)
Theorem C01_maximal_munch : forall d g V D,
  dfa_ok d = true -> sim_ok d g V D = true ->
  forall (w : list byte) (start : N), bytes_ok w -> start < N.of_nat (length w) ->
  exists c off, attempt_ref g false start (skipn (N.to_nat start) w) = Acted c off /\
                MaximalMunch d (skipn (N.to_nat start) w) start c.
Proof.
  intros d g V D Hok Hsim w start Hw Hlt. pose proof (bytes_ok_skipn (N.to_nat start) w Hw) as Hr.
  destruct (attempt_ctx_correct d g V D start _ Hok Hsim Hr (skipn_nonempty w start Hlt)) as [off Hoff].
  exists (scan d (d_start d) (skipn (N.to_nat start) w) start None), off.
  exact (conj Hoff (scan_maximal_munch d _ start Hok Hr)).
Qed.

(* The whole stream: for every input, callback oracle and boundary function, iterating the reference
   semantics of the generated code yields exactly the regions (tokens with variant and span, errors
   with their spans, skipped regions) and the final span of the DFA-level maximal-munch specification
   [attempt_spec] (longest match by [scan], error end by [viable_end]). *)
Theorem C01_stream_eq_spec : forall d g V R D,
  dfa_ok d = true -> sim_ok d g V D = true -> exact_ok d g V R D = true ->
  forall act fb (w : list byte), bytes_ok w ->
  lex_all (attempt_ref g) act fb w false = lex_all (attempt_spec d (lv_of R)) act fb w false.
Proof.
  intros d g V R D Hok Hsim Hex act fb w Hw. unfold lex_all. apply lex_from_equiv. intros start.
  exact (attempt_ref_spec_equiv d g V R D Hok Hsim Hex _ start (bytes_ok_skipn _ w Hw)).
Qed.

(* The graph construction itself (Graph::new up to de-duplication, modelled by [build] in
   Engine/GraphBuild.v: winner per state, early accepts, removal of late accepts, pruning): for EVERY
   raw DFA meeting the decidable side conditions [build_side], the generated code's attempt on the
   constructed graph records the DFA-level maximal munch — no per-definition certificate involved. *)
Theorem C01_construction_correct : forall d,
  build_side d = true ->
  forall start rest, bytes_ok rest -> rest <> nil ->
  exists off, attempt_ref (build d) false start rest = Acted (scan d (d_start d) rest start None) off.
Proof. exact build_attempt_correct. Qed.

(* ... and for the graph g that the real Graph::new produced (de-duplicated, renumbered), whenever the
   bisimulation checker relates it to the modelled construction on the captured raw DFA. *)
Theorem C01_maximal_munch_built : forall d g R,
  build_side d = true -> gsim_ok (build d) g R = true ->
  forall (w : list byte) (start : N), bytes_ok w -> start < N.of_nat (length w) ->
  exists c off, attempt_ref g false start (skipn (N.to_nat start) w) = Acted c off /\
                MaximalMunch d (skipn (N.to_nat start) w) start c.
Proof.
  intros d g R Hside Hsim w start Hw Hlt. pose proof (bytes_ok_skipn (N.to_nat start) w Hw) as Hr.
  destruct (built_graph_correct d g R Hside Hsim start _ Hr (skipn_nonempty w start Hlt)) as [off Hoff].
  exists (scan d (d_start d) (skipn (N.to_nat start) w) start None), off.
  exact (conj Hoff (scan_maximal_munch d _ start (side_dfa d Hside) Hr)).
Qed.

(* either graph may stand for the other in every walk of the generated code, both modes *)
Theorem C01_bisimilar_graphs_agree : forall g1 g2 R,
  gsim_ok g1 g2 R = true ->
  forall isprefix start hops rest, bytes_ok rest ->
  walk g1 isprefix start hops rest (g_root g1) start None = walk g2 isprefix start hops rest (g_root g2) start None.
Proof. exact gsim_attempt. Qed.

(* The byte classes on the edges (ByteClass in graph/mod.rs): merging two edges that de-duplication
   folds gives exactly the union, in canonical form, and the condition fork.rs renders for a class
   (range comparisons with isolated exceptions, or the look-up table above two comparisons) holds on
   exactly the bytes of the class. *)
Theorem C01_merged_class_is_union : forall a b x, byte_ok x ->
  in_ranges x (merge a b) = orb (in_ranges x a) (in_ranges x b).
Proof. exact merge_sem. Qed.

Theorem C01_merged_class_canonical : forall a b, canonical (merge a b) = true.
Proof. exact merge_canonical. Qed.

Theorem C01_edge_condition_exact : forall rs b, ranges_ok rs -> byte_ok b -> cond_eval rs b = in_ranges b rs.
Proof. exact cond_eval_sem. Qed.

(* The de-duplication loop at the end of Graph::new (modelled by [dedup] in Engine/Dedup.v: states with
   equal data folded into the first of them, edges redirected and merged, repeated until the size is
   stable): on a graph whose edge classes are disjoint and whose targets exist it changes no walk of the
   generated code, in either mode. *)
Theorem C01_dedup_preserves_walks : forall g, wf_graph g = true -> closed_graph g = true ->
  forall isprefix start hops rest, bytes_ok rest ->
  walk g isprefix start hops rest (g_root g) start None
  = walk (dedup g) isprefix start hops rest (g_root (dedup g)) start None.
Proof. exact dedup_attempt. Qed.

(* The complete modelled Graph::new — passes 1-4, then the loop — is correct for every raw DFA meeting
   [build_side] (DedupBuild.dedup_build_attempt); the theorem: so is the graph of the real Graph::new
   whenever the checker relates the two. *)
Theorem C01_full_construction_correct : forall d g R,
  build_side d = true -> gsim_ok (dedup (build d)) g R = true ->
  forall start rest, bytes_ok rest -> rest <> nil ->
  exists off, attempt_ref g false start rest = Acted (scan d (d_start d) rest start None) off.
Proof.
  intros d g R Hside Hsim start rest Hw Hne.
  unfold attempt_ref. rewrite <- (gsim_attempt (dedup (build d)) g R Hsim false start (hops_of g) rest Hw).
  exact (dedup_build_walk d Hside start _ rest Hw Hne).
Qed.

(* End to end, from the raw DFA to the emitted code: when the modelled construction is related to the
   captured graph and the program parsed from the emitted code is the program of that graph, running
   the emitted program records the DFA-level maximal munch. *)
Theorem C01_emitted_code_maximal_munch : forall U d g R p,
  build_side d = true -> gsim_ok (dedup (build d)) g R = true ->
  wf_graph g = true -> prog_ok g p = true ->
  forall start rest, bytes_ok rest -> rest <> nil ->
  exists off, fst (attempt_prog U p (PositiveMap.cardinal (g_states g)) false start rest)
              = Acted (scan d (d_start d) rest start None) off.
Proof.
  intros U d g R p Hside Hsim Hwf Hp start rest Hw Hne.
  rewrite (attempt_prog_is_ref U g p false start rest Hp Hwf Hw).
  exact (C01_full_construction_correct d g R Hside Hsim start rest Hw Hne).
Qed.
