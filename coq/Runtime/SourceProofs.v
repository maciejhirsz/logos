(* Runtime/SourceProofs.v — when Source::read returns a chunk and which (C05); when Lexer::bump panics (C15). *)
From Coq Require Import List NArith Lia.
From LogosV Require Import Runtime.Source.
Local Open Scope N_scope.

Lemma checked_add_spec a b : checked_add a b = Some (a + b) /\ a + b <= usize_max
                             \/ checked_add a b = None /\ usize_max < a + b.
Proof. unfold checked_add. destruct (N.leb_spec (a + b) usize_max); [left|right]; auto. Qed.

Theorem read_spec (w : list N) (off sz : N) :
  (off + sz <= usize_max /\ off + sz <= N.of_nat (length w) ->
     read w off sz = Some (firstn (N.to_nat sz) (skipn (N.to_nat off) w)) /\
     length (firstn (N.to_nat sz) (skipn (N.to_nat off) w)) = N.to_nat sz) /\
  (usize_max < off + sz \/ N.of_nat (length w) < off + sz -> read w off sz = None).
Proof.
  unfold read, checked_add. split.
  - intros [H1 H2]. rewrite (proj2 (N.leb_le _ _) H1), (proj2 (N.leb_le _ _) H2). split; [reflexivity|].
    rewrite firstn_length, skipn_length. lia.
  - intros [H|H].
    + rewrite (proj2 (N.leb_gt _ _) H). reflexivity.
    + destruct (off + sz <=? usize_max); [|reflexivity]. rewrite (proj2 (N.leb_gt _ _) H). reflexivity.
Qed.

Lemma is_boundary_le utf8 w i : is_boundary utf8 w i = true -> i <= N.of_nat (length w).
Proof.
  unfold is_boundary. destruct utf8; [|exact (proj1 (N.leb_le _ _))].
  destruct (N.eqb_spec i 0) as [->|_]; [intros _; apply N.le_0_l|].
  destruct (N.ltb_spec (N.of_nat (length w)) i) as [_|Hle]; [discriminate|intros _; exact Hle].
Qed.

Theorem bump_spec utf8 w p n : valid_pos utf8 w p ->
  match bump utf8 w p n with
  | BumpOk p' => p_end p' = p_end p + n /\ p_end p + n <= usize_max /\ p_start p' = p_start p /\ valid_pos utf8 w p'
  | BumpPanic p' => p' = p /\ (usize_max < p_end p + n \/ is_boundary utf8 w (p_end p + n) = false)
  end.
Proof.
  intros [H1 [_ [H3 _]]]. unfold bump.
  destruct (checked_add_spec (p_end p) n) as [[-> Hle]|[-> Hgt]].
  - destruct (is_boundary utf8 w (p_end p + n)) eqn:E.
    + pose proof (is_boundary_le utf8 w _ E) as Hb. unfold valid_pos. cbn [p_start p_end].
      repeat split; [exact Hle|lia|exact Hb|exact H3|exact E].
    + split; [reflexivity|right; reflexivity].
  - split; [reflexivity|left; exact Hgt].
Qed.
