(* Property C17 — logos-cli emits the stripped enum plus the derive's implementation. *)
From Coq Require Import List NArith.
From LogosV Require Import Front.AttrParser Front.Strip Front.StripProofs Cli.Cli Cli.CliProofs.
Import ListNotations.
Local Open Scope N_scope.

(* the derive list keeps exactly the paths that do not end in `Logos`, path-qualified ones included; stated where the
   last path is kept (a dropped last path leaves the separator before it in place: C17_strip_derive_spec) *)
Theorem C17_strip_derive_keeps_others : forall ps q, Forall path_ok (ps ++ [q]) -> last_is_logos q = false ->
  strip_derive (render_paths (ps ++ [q])) = render_paths (kept ps ++ [q]).
Proof.
  intros ps q Hok Hq.
  rewrite strip_derive_spec; [|exact Hok|destruct ps; discriminate].
  rewrite removelast_last, last_last, filter_app, filter_map_comm. cbn [filter fst]. rewrite Hq.
  apply render_pairs_paths.
Qed.
Theorem C17_strip_derive_spec : forall ps, Forall path_ok ps -> ps <> [] ->
  strip_derive (render_paths ps) =
  render_pairs (filter (fun pr => negb (last_is_logos (fst pr)))
                       (map (fun p => (p, true)) (removelast ps) ++ [(last ps [], false)])).
Proof. exact strip_derive_spec. Qed.
(* regression lemma: the token loop as it was (finding F4) destroys path-qualified derives:
   `Logos, serde::Serialize, Debug` becomes `serde :` *)
Theorem C17_old_refuted :
  exists ps, Forall path_ok ps /\
    strip_derive_old 20 (render_paths ps) <> strip_derive (render_paths ps) /\
    strip_derive_old 20 (render_paths ps) = [TIdent [115;101;114;100;101]; TPunct 58 true].
Proof.
  exists [[TIdent s_Logos]; [TIdent [115;101;114;100;101]; TPunct 58 true; TPunct 58 false; TIdent [83]]; [TIdent [68]]].
  split; [|split].
  - repeat constructor; discriminate.
  - vm_compute. discriminate.
  - vm_compute. reflexivity.
Qed.

(* --check never modifies the file system *)
Theorem C17_check_never_writes : forall output p f o so f', run output (Some p) true f = (o, so, f') -> f' = f.
Proof. exact check_never_writes. Qed.
(* --check succeeds iff the file holds the output up to line endings *)
Theorem C17_check_ok_iff : forall output p f,
  fst (fst (run output (Some p) true f)) = Ok <-> exists ex, f p = Some ex /\ lines ex = lines output.
Proof.
  intros output p f. rewrite run_some, <- up_to_date_iff.
  destruct (up_to_date output p f); cbn [fst]; [split; reflexivity|split; discriminate].
Qed.
Theorem C17_write_then_check_ok : forall output p f,
  let f' := snd (run output (Some p) false f) in
  fst (fst (run output (Some p) true f')) = Ok /\ snd (run output (Some p) false f') = f'.
Proof. exact write_then_check_ok. Qed.
