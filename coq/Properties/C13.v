(* Property C13 — callback results map to lexer output as documented; Skip is transparent.
   How the lexing loop uses a callback's decision is read off next_from (Engine/Model.v). *)
From Coq Require Import List NArith.
From LogosV Require Import Engine.Model Runtime.Callbacks Runtime.CallbacksProofs Front.Closure.
Import ListNotations.
Local Open Scope N_scope.

(* every CallbackRetVal / SkipRetVal impl and value shape maps to the documented outcome *)
Theorem C13_construct_matches_table : forall v, construct v = documented (shape_of v).
Proof. exact construct_matches_table. Qed.

(* the decision is taken once per winning match, on the match's leaf and span, and determines the item
   (generator/leaf.rs:60-93) *)
Theorem C13_decision_determines_item : forall attempt act fb (w : list byte) p fuel start l e off,
  attempt p start (skipn (N.to_nat start) w) = Acted (Some (l, e)) off ->
  next_from attempt act fb w p (S fuel) start =
  match act l start e with
  | (AEmit, bump) => ([], Yield (Item true (Some l) start (e + bump)) (e + bump))
  | (ASkip, bump) => let (sk, o) := next_from attempt act fb w p fuel (e + bump) in (RSkip l start (e + bump) :: sk, o)
  | (AErr, bump) | (ADefaultErr, bump) => ([], Yield (Item false (Some l) start (e + bump)) (e + bump))
  end.
Proof. intros * H. cbn [next_from]. rewrite H. reflexivity. Qed.

(* A callback that answers Skip is indistinguishable from a skip pattern: two oracles that agree
   everywhere (one of them "is" the skip leaf) give the same stream; in particular the stream only
   depends on the decisions, not on which mechanism produced them. *)
Theorem C13_skip_transparent : forall attempt act act' fb (w : list byte) p,
  (forall l s e, act l s e = act' l s e) ->
  forall fuel start, next_from attempt act fb w p fuel start = next_from attempt act' fb w p fuel start.
Proof.
  intros attempt act act' fb w p H. induction fuel as [|fuel IH]; intros start; [reflexivity|].
  cbn [next_from]. destruct (attempt p start (skipn (N.to_nat start) w)) as [[[l e]|] off|r| |]; [|reflexivity..].
  rewrite <- H. destruct (act l start e) as [[] bump]; [reflexivity| |reflexivity..]. rewrite IH. reflexivity.
Qed.

Theorem C13_bump_extends_and_excludes : forall attempt act fb (w : list byte) p fuel start l e off bump,
  attempt p start (skipn (N.to_nat start) w) = Acted (Some (l, e)) off ->
  act l start e = (AEmit, bump) ->
  next_from attempt act fb w p (S fuel) start = ([], Yield (Item true (Some l) start (e + bump)) (e + bump)).
Proof. exact bump_extends_and_excludes. Qed.

(* The callback that runs is the one that was written: of an inline callback `|arg| body` the derive keeps every token
   of the body - the body is the token list after `|arg|`, or that list is one braced block and the body its content. *)
Theorem C13_inline_body_complete : forall rest, body_of rest = rest \/ rest = [TGroup Brace (body_of rest)].
Proof.
  intros rest. destruct (is_block rest) eqn:E.
  - right. destruct rest as [|[n|[] inner] [|t r]]; try discriminate. reflexivity.
  - left. exact (body_of_expression rest E).
Qed.
(* regression lemma for finding F12: as it was, a leading group was taken as the whole body; `(a) * 2` - a
   parenthesised group followed by more tokens - lost `* 2` *)
Theorem C13_old_inline_body_drops_tokens :
  exists rest, is_block rest = false /\ body_old rest <> rest /\ (length (body_old rest) < length rest)%nat.
Proof. exists [TGroup Paren [TAtom 1]; TAtom 2; TAtom 3]. repeat split; cbn; [discriminate|auto]. Qed.
