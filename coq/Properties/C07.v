(* Property C07 — partial lexing commits only items that more input cannot change. *)
From Coq Require Import List NArith Bool FMapPositive Lia.
From LogosV Require Import Engine.Model Engine.Cert Engine.CertProofs Engine.StopProofs Engine.LexProofs
  Engine.PartialProofs Engine.StreamProofs Engine.Prog Engine.StreamProg.
Local Open Scope N_scope.

(* Safety, one call of next(): for every graph g (no certificate is needed), whole input w, split
   point k, and boundary functions that agree inside the prefix: an item yielded by the partial lexer
   over w[..k] (after skipping the regions sk) is exactly what the ordinary lexer yields over w from
   the same position. *)
Theorem C07_next_prefix_safe : forall g act fbp fbw (w : list byte) (k : nat),
  (k <= length w)%nat -> (forall i, i <= N.of_nat k -> fbp i = fbw i) ->
  forall fuel fuel' start sk it e, (fuel <= fuel')%nat ->
  next_from (attempt_ref g) act fbp (firstn k w) true fuel start = (sk, Yield it e) ->
  next_from (attempt_ref g) act fbw w false fuel' start = (sk, Yield it e).
Proof. exact next_prefix_safe. Qed.

(* A partial lexer that returns None at s (its span is then the empty s..s: LexProofs.next_from_finished)
   has skipped a leading run of what the ordinary lexer skips, and the ordinary lexer continues exactly
   as if started at s. *)
Theorem C07_next_prefix_none : forall g act fbp fbw (w : list byte) (k : nat),
  (k <= length w)%nat -> (forall i, i <= N.of_nat k -> fbp i = fbw i) ->
  forall fuel fuel' start sk s, (fuel <= fuel')%nat ->
  next_from (attempt_ref g) act fbp (firstn k w) true fuel start = (sk, Finished s s) ->
  exists f'', (0 < f'')%nat /\
    next_from (attempt_ref g) act fbw w false fuel' start =
    (sk ++ fst (next_from (attempt_ref g) act fbw w false f'' s),
     snd (next_from (attempt_ref g) act fbw w false f'' s)).
Proof.
  intros g act fbp fbw w k Hk Hfb fuel fuel' start sk s Hf H.
  destruct (next_none_skips g act fbp fbw w k Hk Hfb fuel start sk s s H) as [Hs Hl].
  exists (fuel' - length sk)%nat. split; [lia|].
  rewrite <- (next_from_skips _ _ _ _ _ _ _ _ Hs). f_equal. lia.
Qed.

(* Promptness.  A DFA state is determined when every unit successor is non-live and all agree on the
   winner; then the recorded match is the same for every continuation of the input: *)
Theorem C07_determined_scan : forall d g V R D,
  dfa_ok d = true -> sim_ok d g V D = true -> exact_ok d g V R D = true ->
  forall q, determined d R q = true ->
  forall (rest : list byte) k best, bytes_ok rest ->
  scan d q rest k best = upd best k (win d (dstep d q UEoi)).
Proof.
  intros d g V R D Hok Hsim Hex q Hd rest k best Hw. destruct (exact_ok_hints d g V R D Hsim Hex) as [HR [HC HD]].
  destruct (determined_spec d R D Hok HR HC HD q Hd) as [_ Hb].
  destruct rest as [|b rest]; cbn [scan]; [reflexivity|].
  apply Forall_cons_iff in Hw as [Hbk Hw']. destruct (Hb b Hbk) as [Hnl Hwin].
  rewrite (scan_not_live d rest _ _ _ Hw' Hnl), Hwin. reflexivity.
Qed.

(* ... and under the certificate prompt_ok the partial lexer does not keep waiting in such a state:
   it acts at the end of the buffer, or every state one byte further does (the look-around case) *)
Theorem C07_prompt_one_byte : forall d g V R s q st, prompt_ok d g V R = true ->
  inV V s q = true -> gfind g s = Some st -> determined d R q = true ->
  partial_mode_test st = false \/
  forall b t, edge_first (g_edges st) b = Some t ->
    exists st', gfind g t = Some st' /\ partial_mode_test st' = false.
Proof.
  intros d g V R s q st HP HV Hst Hd. pose proof (forallb_inV _ V s q HP HV) as H. unfold prompt_pair in H.
  rewrite Hst, Hd in H. apply orb_prop in H as [H|H].
  - left. apply negb_true_iff. exact H.
  - right. intros b t He. destruct (edge_first_in _ _ _ He) as [rs Hin].
    rewrite forallb_forall in H. specialize (H (rs, t) Hin). cbn [snd] in H.
    destruct (gfind g t) as [st'|]; [|discriminate]. exists st'. split; [reflexivity|].
    apply negb_true_iff. exact H.
Qed.

Theorem C07_no_test_acts : forall g start hops s st off c, gfind g s = Some st -> partial_mode_test st = false ->
  at_eoi g true start (S hops) s off c = Acted (record st off c) off \/
  at_eoi g true start (S hops) s off c = RetNone false.
Proof.
  intros g start hops s st off c Hst Hp. rewrite at_eoi_partial, Hst, Hp. destruct (_ && _); auto.
Qed.

(* For definitions without look-around assertions the strict certificate is required: a determined state
   does not carry the partial-mode test at all, so (C07_no_test_acts) it acts at the end of the buffer —
   the item is yielded as soon as it is determined, not one byte later. *)
Theorem C07_prompt_strict : forall d g V R s q st, prompt_strict_ok d g V R = true ->
  inV V s q = true -> gfind g s = Some st -> determined d R q = true ->
  partial_mode_test st = false.
Proof.
  intros d g V R s q st HP HV Hst Hd. pose proof (forallb_inV _ V s q HP HV) as H. unfold prompt_strict_pair in H.
  rewrite Hst, Hd in H. apply negb_true_iff. exact H.
Qed.

(* The converse of promptness: under the strict certificate, a state in which the partial lexer waits (it carries the
   is_prefix test) is one whose item is open: from some unit successor of the DFA state a match can still be
   reached (Live), or two successors disagree on the winner. *)
Theorem C07_waits_only_if_open : forall d g V R D,
  dfa_ok d = true -> sim_ok d g V D = true -> exact_ok d g V R D = true ->
  forall s q st, prompt_strict_ok d g V R = true ->
  inV V s q = true -> gfind g s = Some st -> partial_mode_test st = true ->
  Live d (dstep d q UEoi) \/
  exists b, byte_ok b /\ (Live d (dstep d q (UB b)) \/ win d (dstep d q (UB b)) <> win d (dstep d q UEoi)).
Proof.
  intros d g V R D Hok Hsim Hex s q st HP HV Hst Ht. destruct (exact_ok_hints d g V R D Hsim Hex) as [HR [HC HD]].
  apply (undetermined_witness d R D Hok HR HC HD).
  destruct (determined d R q) eqn:Ed; [|reflexivity].
  rewrite (C07_prompt_strict d g V R s q st HP HV Hst Ed) in Ht. discriminate.
Qed.

(* Stream level.  The regions (items and skipped matches) that a partial lexer over w[..k] produces from
   a position until its first None at s are a leading run of the one-shot lexing of w from the same
   position, and lexing w from s gives exactly the rest, with the same ending.  Every graph. *)
Theorem C07_stream_prefix : forall g act fbp fbw (w : list byte) (k : nat),
  (k <= length w)%nat -> (forall i, i <= N.of_nat k -> fbp i = fbw i) ->
  forall F1 F2 start rs s rs2 fin2, (F1 <= F2)%nat ->
  lex_from (attempt_ref g) act fbp (firstn k w) true F1 start = (rs, Finished s s) ->
  lex_from (attempt_ref g) act fbw w false F2 start = (rs2, fin2) -> fin2 <> Broken ->
  exists rs3 F3, (0 < F3 <= F2)%nat /\ rs2 = rs ++ rs3 /\
    lex_from (attempt_ref g) act fbw w false F3 s = (rs3, fin2).
Proof.
  intros g act fbp fbw w k Hk Hfb F1 F2 start rs s rs2 fin2 _.
  exact (lex_prefix_stream g act fbp fbw w k Hk Hfb F1 F2 start rs s rs2 fin2).
Qed.

(* Under the certificate no run of a partial lexer is out of fuel or stuck ... *)
Theorem C07_partial_runs_end : forall d g V R D,
  dfa_ok d = true -> sim_ok d g V D = true -> exact_ok d g V R D = true ->
  forall act (w : list byte), bytes_ok w -> forall k, (k <= length w)%nat ->
  forall fbp, (forall i, i <= N.of_nat k -> i <= fbp i) ->
  forall fuel start, (N.to_nat (N.of_nat k - start) < fuel)%nat ->
  snd (lex_from (attempt_ref g) act fbp (firstn k w) true fuel start) <> Broken.
Proof. exact lex_partial_not_broken. Qed.

(* ... and feeding the input through ANY sequence of buffers w[..k1], w[..k2], ... (each partial lexer run
   until None, the next one resumed at the reported position), finishing with an ordinary lexer over w,
   reproduces the one-shot lexing of w exactly: the same items, the same skipped matches, the same end. *)
Theorem C07_chunked_is_oneshot : forall d g V R D,
  dfa_ok d = true -> sim_ok d g V D = true -> exact_ok d g V R D = true ->
  forall act fbw fbk (w : list byte), bytes_ok w ->
  (forall l s e, s < e -> e <= N.of_nat (length w) -> e + snd (act l s e) <= N.of_nat (length w)) ->
  (forall i, i <= N.of_nat (length w) -> i <= fbw i /\ fbw i <= N.of_nat (length w)) ->
  (forall k i, i <= N.of_nat k -> fbk k i = fbw i) ->
  forall ks, Forall (fun k => (k <= length w)%nat) ks ->
  chunked g act fbw w fbk ks 0 = lex_all (attempt_ref g) act fbw w false.
Proof.
  intros d g V R D Hok Hsim Hex act fbw fbk w Hw Hact Hfb Hfbk ks Hks. unfold lex_all.
  pose proof (lex_not_broken d g V R D Hok Hsim Hex act fbw w Hw Hact Hfb (S (S (length w))) 0 ltac:(lia)) as HnbW.
  pose proof (chunked_not_broken d g V R D Hok Hsim Hex act w Hw fbw fbk Hact Hfb Hfbk ks 0 Hks) as Hnb.
  destruct (lex_from (attempt_ref g) act fbw w false (S (S (length w))) 0) as [rsW finW] eqn:HW.
  destruct (chunked g act fbw w fbk ks 0) as [rs fin] eqn:EC.
  exact (chunked_eq_oneshot g act fbw w fbk Hfbk ks 0 rsW finW Hks HW HnbW rs fin EC Hnb).
Qed.

(* The same for the program the code generator emits (parsed from the generated code, checked against the graph by
   prog_ok), run in partial mode over the buffers and in ordinary mode at the end. *)
Theorem C07_emitted_chunked_is_oneshot : forall U g p,
  prog_ok g p = true -> wf_graph g = true ->
  forall d V R D, dfa_ok d = true -> sim_ok d g V D = true -> exact_ok d g V R D = true ->
  forall act fbw fbk (w : list byte), bytes_ok w ->
  (forall l s e, s < e -> e <= N.of_nat (length w) -> e + snd (act l s e) <= N.of_nat (length w)) ->
  (forall i, i <= N.of_nat (length w) -> i <= fbw i /\ fbw i <= N.of_nat (length w)) ->
  (forall k i, i <= N.of_nat k -> fbk k i = fbw i) ->
  forall ks, Forall (fun k => (k <= length w)%nat) ks ->
  chunked_with (fun ip s r => fst (attempt_prog U p (PositiveMap.cardinal (g_states g)) ip s r)) act fbw w fbk ks 0
  = lex_all (fun ip s r => fst (attempt_prog U p (PositiveMap.cardinal (g_states g)) ip s r)) act fbw w false.
Proof.
  intros U g p Hp Hwf d V R D Hok Hsim Hex act fbw fbk w Hw Hact Hfb Hfbk ks Hks.
  rewrite (chunked_emitted U g p Hp Hwf act fbw w fbk Hw ks 0), (emitted_stream U g p Hp Hwf act fbw w false Hw).
  exact (C07_chunked_is_oneshot d g V R D Hok Hsim Hex act fbw fbk w Hw Hact Hfb Hfbk ks Hks).
Qed.
