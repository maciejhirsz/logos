(* Engine/DedupProofs.v — one round of state de-duplication, and the loop, preserve every walk of the
   generated code (both modes), on graphs whose edge classes are pairwise disjoint (wf_graph) and
   whose targets exist (closed_graph). *)
From Coq Require Import List PArith Bool FMapPositive Lia.
From LogosV Require Import Engine.Model Engine.Cert Engine.Prog Engine.Dedup Engine.CertProofs Engine.ByteClassProofs
                           Engine.OptProofs Engine.ProgProofs Engine.GraphBuild Engine.BuildProofs Engine.GsimProofs.
Import ListNotations.
Local Open Scope N_scope.

Lemma insert_sel x : byte_ok x -> forall acc bc t, (in_ranges x bc = true -> sel acc x = []) ->
  sel (insert_edge acc bc t) x = sel acc x ++ (if in_ranges x bc then [t] else []).
Proof.
  intros Hx. induction acc as [|[c u] r IH]; intros bc t H; cbn [insert_edge sel] in *; [reflexivity|].
  destruct (Pos.eqb_spec u t) as [->|Hne]; cbn [sel].
  - rewrite (merge_sem c bc x Hx). destruct (in_ranges x bc).
    + destruct (in_ranges x c); [discriminate (H eq_refl)|]. rewrite (H eq_refl). reflexivity.
    + rewrite orb_false_r, app_nil_r. reflexivity.
  - destruct (in_ranges x c).
    + rewrite IH; [reflexivity|]. intros E. discriminate (H E).
    + exact (IH bc t H).
Qed.

Lemma insert_targets acc bc t :
  map snd (insert_edge acc bc t) = if existsb (Pos.eqb t) (map snd acc) then map snd acc else map snd acc ++ [t].
Proof.
  induction acc as [|[c u] r IH]; cbn [insert_edge map snd existsb app]; [reflexivity|].
  rewrite (Pos.eqb_sym t u). destruct (Pos.eqb u t); cbn [orb map snd]; [reflexivity|].
  rewrite IH. destruct (existsb (Pos.eqb t) (map snd r)); reflexivity.
Qed.

(* at most one edge, inserted or still to come, holds x: merging classes never gives x a second holder *)
Lemma rewrite_sel x rw : byte_ok x -> forall es acc, (length (sel acc x) + length (sel es x) <= 1)%nat ->
  sel (fold_left (fun acc e => insert_edge acc (fst e) (rw (snd e))) es acc) x = sel acc x ++ map rw (sel es x).
Proof.
  intros Hx. induction es as [|[bc t] es IH]; intros acc Hc; cbn [fold_left fst snd sel] in *; [symmetry; apply app_nil_r|].
  assert (Hd : in_ranges x bc = true -> sel acc x = []).
  { intros E. rewrite E in Hc. cbn [length] in Hc. apply length_zero_iff_nil. lia. }
  rewrite IH; rewrite (insert_sel x Hx acc bc (rw t) Hd).
  - destruct (in_ranges x bc); [rewrite <- app_assoc|rewrite app_nil_r]; reflexivity.
  - rewrite app_length. destruct (in_ranges x bc); cbn [length] in *; lia.
Qed.

Lemma rewrite_first rw es x : byte_ok x -> (count_edges es x <= 1)%nat ->
  edge_first (rewrite_edges rw es) x = option_map rw (edge_first es x).
Proof.
  intros Hx Hc. rewrite count_sel in Hc. unfold rewrite_edges.
  rewrite !first_sel, (rewrite_sel x rw Hx es [] Hc).
  destruct (sel es x); reflexivity.
Qed.

Lemma rewrite_count rw es x : byte_ok x -> (count_edges es x <= 1)%nat ->
  count_edges (rewrite_edges rw es) x = count_edges es x.
Proof.
  intros Hx Hc. rewrite !count_sel in *. unfold rewrite_edges.
  rewrite (rewrite_sel x rw Hx es [] Hc). apply map_length.
Qed.

(* insert_edge keeps one edge per target, in the order of first occurrence *)
Lemma insert_fold_targets (rw : sid -> sid) : forall es acc,
  map snd (fold_left (fun acc e => insert_edge acc (fst e) (rw (snd e))) es acc)
  = nodup_acc (map (fun e => rw (snd e)) es) (rev (map snd acc)).
Proof.
  induction es as [|e es IH]; intros acc; cbn [fold_left map nodup_acc]; [symmetry; apply rev_involutive|].
  rewrite IH, insert_targets, existsb_rev.
  destruct (existsb (Pos.eqb (rw (snd e))) (map snd acc)); [reflexivity|]. rewrite rev_unit. reflexivity.
Qed.

Lemma rewrite_targets rw es : map snd (rewrite_edges rw es) = nodup_acc (map (fun e => rw (snd e)) es) [].
Proof. exact (insert_fold_targets rw es []). Qed.

Lemma rewrite_no_edges rw st : no_edges (rewrite_state rw st) = no_edges st.
Proof.
  unfold no_edges. cbn [rewrite_state g_edges]. destruct (g_edges st) as [|e es]; [reflexivity|].
  assert (H : In (rw (snd e)) (map snd (rewrite_edges rw (e :: es)))).
  { rewrite rewrite_targets. apply nodup_acc_In. left. reflexivity. }
  destruct (rewrite_edges rw (e :: es)); [destruct H|reflexivity].
Qed.

Definition SameData (a b : gstate) : Prop :=
  g_early a = g_early b /\ g_accept a = g_accept b /\ g_eoi a = g_eoi b /\ no_edges a = no_edges b /\
  forall x, byte_ok x -> edge_first (g_edges a) x = edge_first (g_edges b) x.

(* the chain of tests is rewritten into a conjunction, not simplified: a cast between the two forms makes the
   kernel evaluate the sweep over all bytes *)
Lemma st_eqb_spec a b : st_eqb a b = true <-> SameData a b.
Proof.
  (* Bool.negb_if turns each `if negb b then false else r` into `if b then r else false`, which is b && r unfolded *)
  unfold st_eqb, SameData. rewrite !negb_if.
  apply andb_iff; [apply leaf_eqb_eq|]. apply andb_iff; [apply leaf_eqb_eq|].
  apply andb_iff; [apply opt_sid_eqb_iff|]. apply andb_iff; [apply eqb_true_iff|].
  rewrite forallb_bytes. split; intros H x Hx; apply opt_sid_eqb_iff, H, Hx.
Qed.

Lemma SameData_refl a : SameData a a.
Proof. repeat split. Qed.
Lemma SameData_sym a b : SameData a b -> SameData b a.
Proof.
  intros [H1 [H2 [H3 [H4 H5]]]].
  exact (conj (eq_sym H1) (conj (eq_sym H2) (conj (eq_sym H3) (conj (eq_sym H4) (fun x Hx => eq_sym (H5 x Hx)))))).
Qed.
Lemma SameData_trans a b c : SameData a b -> SameData b c -> SameData a c.
Proof.
  intros [H1 [H2 [H3 [H4 H5]]]] [K1 [K2 [K3 [K4 K5]]]].
  exact (conj (eq_trans H1 K1) (conj (eq_trans H2 K2) (conj (eq_trans H3 K3) (conj (eq_trans H4 K4)
           (fun x Hx => eq_trans (H5 x Hx) (K5 x Hx)))))).
Qed.

Lemma find_ext {A} (f h : A -> bool) l : (forall x, f x = h x) -> find f l = find h l.
Proof. intros H. induction l as [|x l IH]; cbn [find]; [reflexivity|]. rewrite H, IH. reflexivity. Qed.

Lemma canon_of_rep els s st : In (s, st) els ->
  exists v, In (canon_of els s st, v) els /\ SameData v st /\ canon_of els (canon_of els s st) v = canon_of els s st.
Proof.
  intros Hin. unfold canon_of. destruct (find (fun kv => st_eqb (snd kv) st) els) as [[k v]|] eqn:Ef.
  - destruct (find_some _ _ Ef) as [Hk Hv]. cbn [fst snd] in *. apply st_eqb_spec in Hv.
    exists v. split; [exact Hk|]. split; [exact Hv|].
    rewrite (find_ext (fun kv => st_eqb (snd kv) v) (fun kv => st_eqb (snd kv) st) els), Ef; [reflexivity|].
    intros [k' v']. cbn [snd]. apply eq_iff_eq_true. rewrite !st_eqb_spec.
    split; intros H; [exact (SameData_trans _ _ _ H Hv)|exact (SameData_trans _ _ _ H (SameData_sym _ _ Hv))].
  - pose proof (find_none _ _ Ef _ Hin) as Hn. cbn [snd] in Hn.
    rewrite (proj2 (st_eqb_spec st st) (SameData_refl st)) in Hn. discriminate.
Qed.

Lemma rows_eqb_map (f h : N -> option sid) : forall l,
  rows_eqb (map f l) (map h l) = forallb (fun x => opt_sid_eqb (f x) (h x)) l.
Proof. induction l as [|x l IH]; cbn [map rows_eqb forallb]; [reflexivity|]. rewrite IH. destruct (opt_sid_eqb (f x) (h x)); reflexivity. Qed.

Lemma st_eqb_r_row a b : st_eqb_r a (row a) b (row b) = st_eqb a b.
Proof. unfold st_eqb_r, st_eqb, row. rewrite rows_eqb_map. reflexivity. Qed.

Definition present (g : graph) (t : sid) : Prop := exists st, gfind g t = Some st.

Lemma present_iff g t : match gfind g t with Some _ => true | None => false end = true <-> present g t.
Proof. exact (is_some_true (gfind g t)). Qed.

Lemma closed_state_iff g st : closed_state g st = true <->
  (forall t, In t (map snd (g_edges st)) -> present g t) /\ (forall t, g_eoi st = Some t -> present g t).
Proof.
  unfold closed_state. rewrite andb_true_iff, forallb_forall. split; intros [H1 H2]; split.
  - intros t Ht. apply in_map_iff in Ht as [e [<- He]]. apply present_iff. exact (H1 e He).
  - intros t Et. rewrite Et in H2. apply present_iff. exact H2.
  - intros e He. apply present_iff. apply H1. exact (in_map snd _ e He).
  - destruct (g_eoi st) as [t|]; [apply present_iff; exact (H2 t eq_refl)|reflexivity].
Qed.

Lemma closed_graph_iff g : closed_graph g = true <->
  (forall s st, gfind g s = Some st -> closed_state g st = true) /\ present g (g_root g).
Proof.
  unfold closed_graph. apply andb_iff; [apply (forallb_elements (fun kv => closed_state g (snd kv)))|apply present_iff].
Qed.

Section Round.
  Variable g : graph.
  Hypothesis Hwf : wf_graph g = true.
  Hypothesis Hcl : closed_graph g = true.

  Let els := PositiveMap.elements (g_states g).
  Let rw := rw_of (canon_map g).

  Lemma keys_mem s : existsb (Pos.eqb s) (keys g) = match gfind g s with Some _ => true | None => false end.
  Proof. apply eq_iff_eq_true. rewrite existsb_eqb_in, present_iff. apply in_keys_elements. Qed.

  Lemma canon_of_r_eq s st :
    canon_of_r (map (fun kv => (kv, row (snd kv))) els) s st (row st) = canon_of els s st.
  Proof.
    unfold canon_of_r, canon_of. generalize els as l. induction l as [|[k v] l IH]; cbn [map find fst snd]; [reflexivity|].
    rewrite st_eqb_r_row. destruct (st_eqb v st); [reflexivity|exact IH].
  Qed.

  Lemma rw_eq s : rw s = match gfind g s with Some st => canon_of els s st | None => s end.
  Proof.
    unfold rw, rw_of, canon_map. rewrite fold_add_find.
    rewrite keys_mem, PositiveMap.gempty, canon_of_r_eq. unfold state_of. destruct (gfind g s); reflexivity.
  Qed.

  Lemma rw_absent s : gfind g s = None -> rw s = s.
  Proof. intros Hs. rewrite rw_eq, Hs. reflexivity. Qed.

  Let g' := dedup_round g.

  Lemma round_find s : gfind g' s
    = match gfind g s with
      | Some st => if Pos.eqb (rw s) s then Some (rewrite_state rw st) else None
      | None => None end.
  Proof.
    unfold g', dedup_round, gfind. cbn [g_states]. fold rw.
    rewrite fold_states_find, keys_mem, PositiveMap.gempty. unfold state_of, gfind.
    destruct (PositiveMap.find s (g_states g)); [|reflexivity].
    destruct (Pos.eqb (rw s) s); reflexivity.
  Qed.

  Lemma round_state s st2 : gfind g' s = Some st2 -> exists st, gfind g s = Some st /\ st2 = rewrite_state rw st.
  Proof.
    rewrite round_find. destruct (gfind g s) as [st|]; [|discriminate]. destruct (Pos.eqb (rw s) s); [|discriminate].
    intros E. injection E as <-. exists st. split; reflexivity.
  Qed.

  (* the representative of a state has the same data and survives the round *)
  Lemma round_rep s st : gfind g s = Some st ->
    exists st', gfind g (rw s) = Some st' /\ SameData st' st /\ gfind g' (rw s) = Some (rewrite_state rw st').
  Proof.
    intros Hs. destruct (canon_of_rep els s st (PositiveMap.elements_correct _ _ Hs)) as [v [Hin [HD Hid]]].
    pose proof (rw_eq s) as Es. rewrite Hs in Es. rewrite <- Es in Hin, Hid.
    pose proof (PositiveMap.elements_complete _ _ _ Hin) as Hv. fold (gfind g (rw s)) in Hv.
    exists v. split; [exact Hv|]. split; [exact HD|].
    rewrite round_find, (rw_eq (rw s)), Hv, Hid, Pos.eqb_refl. reflexivity.
  Qed.

  Lemma rw_kept t : present g t -> present g' (rw t).
  Proof. intros [st Ht]. destruct (round_rep t st Ht) as [st' [_ [_ H]]]. exists (rewrite_state rw st'). exact H. Qed.

  Lemma closed_of s st : gfind g s = Some st ->
    (forall t, In t (map snd (g_edges st)) -> present g t) /\ (forall t, g_eoi st = Some t -> present g t).
  Proof. intros H. apply closed_state_iff. exact (proj1 (proj1 (closed_graph_iff g) Hcl) s st H). Qed.

  Lemma root_present : present g (g_root g).
  Proof. exact (proj2 (proj1 (closed_graph_iff g) Hcl)). Qed.

  Lemma count_le s st x : gfind g s = Some st -> byte_ok x -> (count_edges (g_edges st) x <= 1)%nat.
  Proof. intros Hs. exact (proj1 (proj1 (wf_state_iff st) (proj1 (wf_graph_iff g) Hwf s st Hs)) x). Qed.

  Definition RoundRel (s1 s2 : sid) : Prop := present g s1 /\ s2 = rw s1.

  Lemma round_rel s1 s2 : RoundRel s1 s2 -> StatesRel g g' RoundRel s1 s2.
  Proof.
    intros [[st Hs] ->]. destruct (round_rep s1 st Hs) as [st' [Hs' [[D1 [D2 [D3 [D4 D5]]]] Hs2]]].
    destruct (closed_of s1 st Hs) as [Hce Hct].
    exists st, (rewrite_state rw st'). split; [exact Hs|]. split; [exact Hs2|]. split; [|split; [|split]].
    - intros off c. unfold record. cbn [rewrite_state g_early g_accept]. rewrite D1, D2. reflexivity.
    - unfold partial_mode_test. rewrite rewrite_no_edges, D4. cbn [rewrite_state g_eoi]. rewrite D3.
      destruct (g_eoi st); reflexivity.
    - intros x Hx. cbn [rewrite_state g_edges].
      rewrite (rewrite_first rw (g_edges st') x Hx (count_le _ _ x Hs' Hx)), (D5 x Hx).
      destruct (edge_first (g_edges st) x) as [t|] eqn:Et; [|exact I].
      destruct (edge_first_in _ x t Et) as [rs Hin]. exact (conj (Hce t (in_map snd _ (rs, t) Hin)) eq_refl).
    - cbn [rewrite_state g_eoi]. rewrite D3. destruct (g_eoi st) as [t|]; [|exact I].
      exact (conj (Hct t eq_refl) eq_refl).
  Qed.

  Theorem round_attempt isprefix start hops rest : bytes_ok rest ->
    walk g isprefix start hops rest (g_root g) start None = walk g' isprefix start hops rest (g_root g') start None.
  Proof.
    intros Hw. apply (rel_attempt g g' RoundRel round_rel isprefix start hops rest); [|exact Hw].
    split; [exact root_present|reflexivity].
  Qed.

  Lemma round_wf : wf_graph g' = true.
  Proof.
    apply wf_graph_iff. intros s st2 Hin. destruct (round_state s st2 Hin) as [st [Hs ->]].
    apply wf_state_iff. cbn [rewrite_state g_edges]. split.
    - intros x Hb. rewrite (rewrite_count rw (g_edges st) x Hb (count_le s st x Hs Hb)). exact (count_le s st x Hs Hb).
    - rewrite rewrite_targets. apply nodup_acc_nodup. constructor.
  Qed.

  Lemma round_closed : closed_graph g' = true.
  Proof.
    apply closed_graph_iff. split; [|exact (rw_kept _ root_present)].
    intros s st2 Hin. destruct (round_state s st2 Hin) as [st [Hs ->]]. destruct (closed_of s st Hs) as [He Ht].
    apply closed_state_iff. cbn [rewrite_state g_edges g_eoi]. split.
    - intros t Hin'. rewrite rewrite_targets, nodup_acc_In, in_map_iff in Hin'. destruct Hin' as [e [<- Hin']].
      exact (rw_kept _ (He _ (in_map snd _ e Hin'))).
    - intros t E. destruct (g_eoi st) as [u|]; [|discriminate]. injection E as <-. exact (rw_kept u (Ht u eq_refl)).
  Qed.
End Round.

Theorem dedup_loop_attempt : forall fuel g, wf_graph g = true -> closed_graph g = true ->
  forall isprefix start hops rest, bytes_ok rest ->
  walk g isprefix start hops rest (g_root g) start None
  = walk (dedup_loop fuel g) isprefix start hops rest (g_root (dedup_loop fuel g)) start None.
Proof.
  induction fuel as [|fuel IH]; intros g Hwf Hcl isprefix start hops rest Hw; cbn [dedup_loop]; [reflexivity|].
  destruct (Nat.eqb _ _).
  - apply round_attempt; assumption.
  - rewrite (round_attempt g Hwf Hcl isprefix start hops rest Hw).
    apply IH; [apply round_wf; assumption|apply round_closed; assumption|exact Hw].
Qed.

Theorem dedup_attempt g : wf_graph g = true -> closed_graph g = true ->
  forall isprefix start hops rest, bytes_ok rest ->
  walk g isprefix start hops rest (g_root g) start None
  = walk (dedup g) isprefix start hops rest (g_root (dedup g)) start None.
Proof. apply dedup_loop_attempt. Qed.
