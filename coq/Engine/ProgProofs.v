(* Engine/ProgProofs.v — an emitted program accepted by [prog_ok] runs exactly like the emitted-program
   model of the graph (ExecOpt.walk_opt: same result, same read log), hence like the reference
   semantics (OptProofs.walk_opt_ref). *)
From Coq Require Import List NArith Bool FMapPositive.
From LogosV Require Import Engine.Model Engine.Cert Engine.ExecOpt Engine.Prog
                           Engine.CertProofs Engine.OptProofs.
Import ListNotations.
Local Open Scope N_scope.

(* the fast loop depends on the class only through membership of bytes *)
Definition same_class (C1 C2 : ranges) : Prop := forall b, byte_ok b -> in_ranges b C1 = in_ranges b C2.

Lemma fast_single_ext C1 C2 : same_class C1 C2 -> forall rest off, bytes_ok rest ->
  fast_single C1 rest off = fast_single C2 rest off.
Proof.
  intros H. induction rest as [|b rest IH]; intros off Hw; [reflexivity|].
  apply Forall_cons_iff in Hw as [Hb Hw']. cbn [fast_single]. rewrite (H b Hb), (IH (off + 1) Hw'). reflexivity.
Qed.

Lemma first_out_ext C1 C2 : same_class C1 C2 -> forall n l, bytes_ok l -> first_out C1 l n = first_out C2 l n.
Proof.
  intros H. induction n as [|n IH]; intros l Hw; [reflexivity|].
  destruct l as [|b l]; [reflexivity|]. apply Forall_cons_iff in Hw as [Hb Hw'].
  cbn [first_out]. rewrite (H b Hb), (IH l Hw'). reflexivity.
Qed.

Lemma fast_chunk_ext U C1 C2 : same_class C1 C2 -> forall fuel rest off, bytes_ok rest ->
  fast_chunk fuel U C1 rest off = fast_chunk fuel U C2 rest off.
Proof.
  intros H. induction fuel as [|fuel IH]; intros rest off Hw; cbn [fast_chunk].
  - apply fast_single_ext; assumption.
  - rewrite (first_out_ext C1 C2 H U rest Hw), (fast_single_ext C1 C2 H rest off Hw).
    rewrite (IH (skipn U rest) (off + N.of_nat U) (bytes_ok_skipn U rest Hw)). reflexivity.
Qed.

Lemma loop_class_in p k m b : byte_ok b -> in_ranges b (loop_class p k m) = lut_bit p k m b.
Proof.
  intros Hb. exact (in_ranges_filter_bytes _ b Hb).
Qed.

Lemma opt_sid_eqb_iff a b : opt_sid_eqb a b = true <-> a = b.
Proof.
  destruct a as [x|], b as [y|]; cbn [opt_sid_eqb]; [rewrite Pos.eqb_eq| | |]; split; congruence.
Qed.

Lemma setup_ok_record su st off c :
  setup_ok su (g_early st) (g_accept st) = true -> psetup_apply su off c = record st off c.
Proof.
  unfold setup_ok, record, psetup_apply. destruct (g_early st) as [l|].
  - destruct su as [|l'|l']; [discriminate| |discriminate]. intros H. apply N.eqb_eq in H. subst l'. reflexivity.
  - destruct (g_accept st) as [l|].
    + destruct su as [|l'|l']; [discriminate|discriminate|]. intros H. apply N.eqb_eq in H. subst l'. reflexivity.
    + destruct su; [reflexivity|discriminate|discriminate].
Qed.

Lemma prog_ok_spec g p : prog_ok g p = true ->
  p_root p = g_root g /\ p_restart p = g_root g /\
  (forall s st, gfind g s = Some st ->
     exists ps, PositiveMap.find s (p_states p) = Some ps /\ pstate_ok g p s st ps = true) /\
  (forall s, gfind g s = None -> PositiveMap.find s (p_states p) = None).
Proof.
  unfold prog_ok. intros H. apply andb_prop in H as [H H4]. apply andb_prop in H as [H H3]. apply andb_prop in H as [H1 H2].
  split; [apply Pos.eqb_eq, H1|]. split; [apply Pos.eqb_eq, H2|]. split.
  - intros s st Hs. apply (forallb_find _ _ _ _ H3) in Hs. cbn [fst snd] in Hs.
    destruct (PositiveMap.find s (p_states p)) as [ps|]; [|discriminate]. exists ps. split; [reflexivity|exact Hs].
  - intros s Hs. destruct (PositiveMap.find s (p_states p)) as [ps|] eqn:E; [|reflexivity].
    apply (forallb_find _ _ _ _ H4) in E. cbn [fst] in E. rewrite Hs in E. discriminate.
Qed.

Lemma pstate_ok_spec g p s st ps : pstate_ok g p s st ps = true ->
  (forall U rest off, bytes_ok rest -> pfast U p ps rest off = fast_loop U s st rest off) /\
  (forall off c, psetup_apply (p_setup ps) off c = record st off c) /\
  (forall b, byte_ok b -> pfork_eval p (p_fork ps) b = fork_lookup s st b) /\
  p_prefix ps = partial_mode_test st /\ p_roottest ps = Pos.eqb s (g_root g) /\ p_eoi ps = g_eoi st.
Proof.
  unfold pstate_ok. intros H.
  apply andb_prop in H as [H H6]. apply andb_prop in H as [H H5]. apply andb_prop in H as [H H4].
  apply andb_prop in H as [H H3]. apply andb_prop in H as [H1 H2].
  split.
  { intros U rest off Hw. unfold pfast, fast_loop.
    destruct (self_class s (g_edges st)) as [C|], (p_loop ps) as [[k m]|]; [|discriminate H1|discriminate H1|reflexivity].
    apply fast_chunk_ext; [|exact Hw]. intros b Hb. rewrite loop_class_in by exact Hb.
    apply eqb_prop. exact (proj1 (forallb_bytes _) H1 b Hb). }
  split; [intros off c; apply setup_ok_record, H2|].
  split; [intros b Hb; apply opt_sid_eqb_iff; exact (proj1 (forallb_bytes _) H3 b Hb)|].
  split; [apply eqb_prop, H4|]. split; [apply eqb_prop, H5|apply opt_sid_eqb_iff, H6].
Qed.

Section Ok.
  Variables (g : graph) (p : prog).
  Hypothesis Hok : prog_ok g p = true.

  Lemma ok_restart : p_restart p = g_root g.
  Proof. exact (proj1 (proj2 (prog_ok_spec g p Hok))). Qed.

  Theorem walk_prog_opt U isprefix start : forall fuel hops rest s off c, bytes_ok rest ->
    walk_prog U p isprefix start fuel hops rest s off c = walk_opt U g isprefix start fuel hops rest s off c.
  Proof.
    destruct (prog_ok_spec g p Hok) as (_ & _ & Hpresent & Habsent).
    induction fuel as [|fuel IH]; intros hops rest s off c Hw; [reflexivity|].
    destruct (gfind g s) as [st|] eqn:Hs; [|cbn [walk_prog walk_opt]; rewrite Hs, (Habsent s Hs); reflexivity].
    destruct (Hpresent s st Hs) as [ps [Eps Hps]].
    destruct (pstate_ok_spec g p s st ps Hps) as (Hfast & Hsu & Hfork & Hpre & Hroot & Heoi).
    specialize (Hfast U rest off Hw). pose proof (fast_loop_sem U s st rest off) as Hsk.
    destruct (fast_loop U s st rest off) as [[rest1 off1] tr1] eqn:Efl. destruct Hsk as (pre & E & _).
    rewrite E in Hw. apply Forall_app in Hw as [_ Hw1].
    cbn [walk_prog walk_opt]. rewrite Hs, Eps, Hfast, Efl, Hsu.
    destruct rest1 as [|b rest'].
    - unfold eoi_block. rewrite Hpre, Hroot, Heoi. destruct (g_eoi st) as [t|]; [|reflexivity].
      destruct hops as [|h]; [reflexivity|].
      rewrite (IH h [] t (off1 + 1) (record st off1 c) (Forall_nil _)). reflexivity.
    - apply Forall_cons_iff in Hw1 as [Hb Hw']. rewrite (Hfork b Hb).
      destruct (fork_lookup s st b) as [t|]; [|reflexivity].
      rewrite (IH hops rest' t (off1 + 1) (record st off1 c) Hw'). reflexivity.
  Qed.
End Ok.

(* attempt_prog takes the number of states as an argument: with the graph's own count its hop fuel is hops_of g *)
Lemma attempt_prog_opt U g p isprefix start rest : prog_ok g p = true -> bytes_ok rest ->
  attempt_prog U p (PositiveMap.cardinal (g_states g)) isprefix start rest = attempt_opt U g isprefix start rest.
Proof.
  intros Hok Hw. unfold attempt_prog, attempt_opt, hops_of. rewrite (proj1 (prog_ok_spec g p Hok)).
  apply (walk_prog_opt g p Hok), Hw.
Qed.

Theorem attempt_prog_is_ref U g p isprefix start rest : prog_ok g p = true -> wf_graph g = true -> bytes_ok rest ->
  fst (attempt_prog U p (PositiveMap.cardinal (g_states g)) isprefix start rest) = attempt_ref g isprefix start rest.
Proof.
  intros Hok Hwf Hw. rewrite (attempt_prog_opt U g p isprefix start rest Hok Hw). apply attempt_opt_ref; assumption.
Qed.

(* the reads of ANY program of the parsed shape: no checker is involved *)
Lemma pfast_log U p ps rest off : (1 <= U)%nat ->
  let '(_, off1, tr1) := pfast U p ps rest off in fast_log off off1 2 tr1.
Proof.
  intros HU. unfold pfast. destruct (p_loop ps) as [[k m]|]; [apply fast_chunk_log; exact HU|apply fast_log_nil, N.le_refl].
Qed.

Theorem walk_prog_log U p isprefix start : (1 <= U)%nat ->
  forall fuel hops rest s off c, linear_from off (snd (walk_prog U p isprefix start fuel hops rest s off c)).
Proof.
  intros HU. induction fuel as [|fuel IH]; intros hops rest s off c; cbn [walk_prog]; [apply linear_nil|].
  destruct (PositiveMap.find s (p_states p)) as [ps|]; [|apply linear_nil].
  pose proof (pfast_log U p ps rest off HU) as Hf.
  destruct (pfast U p ps rest off) as [[rest1 off1] tr1].
  destruct rest1 as [|b rest'].
  - rewrite snd_visit. apply (linear_visit off off1 tr1 _ Hf).
    destruct (p_prefix ps && isprefix); [apply linear_nil|].
    destruct (p_roottest ps && (off1 =? start)); [apply linear_nil|].
    destruct (p_eoi ps) as [t|]; [|apply linear_nil].
    destruct hops as [|h]; [apply linear_nil|apply IH].
  - destruct (pfork_eval p (p_fork ps) b) as [t|].
    + rewrite snd_visit. apply (linear_visit off off1 tr1 _ Hf), IH.
    + apply (linear_visit off off1 tr1 [] Hf), linear_nil.
Qed.
