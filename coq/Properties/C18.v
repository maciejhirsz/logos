(* Property C18 — attribute arguments may be given in any order. *)
From Coq Require Import List NArith Bool Permutation.
From LogosV Require Import Front.AttrParser Front.AttrProofs Front.TypeParams.
From LogosV Require Import Engine.Model Engine.GraphBuild Engine.CertProofs Engine.GsimProofs Engine.Rename.
Import ListNotations.
Local Open Scope N_scope.

(* the tokenizer returns exactly the comma-separated items, whatever their order and kind
   (name = value, name(...), name "lit", name ident = value, positional) *)
Theorem C18_parse_join_items : forall its fuel, Forall item_ok its -> (length its < fuel)%nat ->
  parse_all true fuel (join its) = map sem its.
Proof. exact parse_join_items. Qed.

(* named arguments set independent fields: any order gives the same definition and no error *)
Theorem C18_named_args_commute : forall l1 l2, Permutation l1 l2 ->
  NoDup (map field_of l1) -> Forall (fun n => field_of n <> None) l1 ->
  forall d, fold_left named_attr l1 d = fold_left named_attr l2 d.
Proof. exact named_args_commute. Qed.

(* regression lemma: the tokenizer as it was is refuted (finding F5).  A name(...) item that is not last breaks
   the item that follows it: `"a", ignore(case), priority = 3` — here after the leading literal has been taken. *)
Theorem C18_old_refuted :
  exists its, Forall item_ok its /\ parse_all false 5 (join its) <> map sem its.
Proof.
  exists [IGroup [105] [TIdent [99]]; IAssign [112] [TLit [51]]].
  split.
  - repeat constructor.
  - vm_compute. discriminate.
Qed.

(* #[logos(type T = Type)] and #[logos(lifetime = 'a)] items (Front/TypeParams.v): what the derive puts
   into the generics depends on the items only through "is there a lifetime item" and the type items
   in their order — so the two kinds of items may be listed in either order. *)
Theorem C18_generic_items_commute : forall l1 l2,
  has_lifetime l1 = has_lifetime l2 -> type_items l1 = type_items l2 ->
  TypeParams.generics (run l1) = TypeParams.generics (run l2).
Proof. intros l1 l2 H1 H2. rewrite !generics_spec, H1, H2. reflexivity. Qed.

Theorem C18_type_lifetime_swap : forall n t a pre post,
  TypeParams.generics (run (pre ++ ISetType n t :: ISetLifetime a :: post))
  = TypeParams.generics (run (pre ++ ISetLifetime a :: ISetType n t :: post)).
Proof.
  intros n t a pre post. apply C18_generic_items_commute.
  - unfold has_lifetime. rewrite !existsb_app. cbn [existsb]. rewrite !orb_true_r. reflexivity.
  - unfold type_items. rewrite !flat_map_app. reflexivity.
Qed.

(* regression lemma: with the eager rewrite of set_type as it was, the two orders differ (finding F10) *)
Theorem C18_old_generic_items_refuted : exists n t a,
  generics_old (run_old [ISetType n t; ISetLifetime a]) <> generics_old (run_old [ISetLifetime a; ISetType n t]).
Proof. exists 1, [7], 7. cbn. intros H. discriminate H. Qed.

(* items that number the leaves (skips) listed in another order: when the graph of one definition, its leaf
   numbers translated by [m], is accepted by the bisimulation checker against the graph of the other, every
   walk of the generated code ends in the same place with the same (translated) leaf, in both modes *)
Theorem C18_reordered_leaves_agree : forall g1 g2 m R,
  gsim_ok g1 (rename_graph (leaf_map m) g2) R = true ->
  forall isprefix start hops rest, bytes_ok rest ->
  walk g1 isprefix start hops rest (g_root g1) start None
  = rename_stop (leaf_map m) (walk g2 isprefix start hops rest (g_root g2) start None).
Proof.
  intros g1 g2 m R H isprefix start hops rest Hb.
  rewrite (gsim_attempt g1 _ R H isprefix start hops rest Hb).
  exact (bisim_attempt _ g2 eq _ (rename_step (leaf_map m) g2) isprefix start hops rest eq_refl Hb).
Qed.
