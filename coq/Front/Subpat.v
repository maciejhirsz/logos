(* Front/Subpat.v — model of Subpatterns::subst_subpatterns (parser/subpattern.rs:105-149): every
   leftmost, non-overlapping occurrence of (?&name) — regex \(\?\&[0-9a-zA-Z_]+\) — is replaced by
   the stored text of `name`; None when some name is not defined.  Texts are byte lists. *)
From Coq Require Import List NArith.
Import ListNotations.
Local Open Scope N_scope.

Definition is_ident (b : N) : bool :=
  ((48 <=? b) && (b <=? 57)) || ((65 <=? b) && (b <=? 90)) || ((97 <=? b) && (b <=? 122)) || (b =? 95).

Fixpoint span_ident (s : list N) : list N * list N :=
  match s with
  | c :: r => if is_ident c then let (a, b) := span_ident r in (c :: a, b) else ([], s)
  | [] => ([], [])
  end.

(* does s start with a group "(?&name)"?  returns the name and what follows *)
Definition match_group (s : list N) : option (list N * list N) :=
  match s with
  | 40 :: 63 :: 38 :: r =>
      match span_ident r with
      | (c :: name, 41 :: rest) => Some (c :: name, rest)
      | _ => None
      end
  | _ => None
  end.

Fixpoint list_eqb (a b : list N) : bool :=
  match a, b with
  | [], [] => true
  | x :: a', y :: b' => (x =? y) && list_eqb a' b'
  | _, _ => false
  end.

Fixpoint lookup (env : list (list N * list N)) (name : list N) : option (list N) :=
  match env with
  | [] => None
  | (n, t) :: e => if list_eqb n name then Some t else lookup e name
  end.

(* fuel >= length s.  Result: the substituted text (None if a name was undefined) *)
Fixpoint subst (fuel : nat) (env : list (list N * list N)) (s : list N) : option (list N) :=
  match fuel with
  | O => match s with [] => Some [] | _ => None end
  | S f =>
      match s with
      | [] => Some []
      | c :: r =>
          match match_group s with
          | Some (name, rest) =>
              match lookup env name, subst f env rest with
              | Some t, Some out => Some (t ++ out)
              | _, _ => None
              end
          | None => option_map (cons c) (subst f env r)
          end
      end
  end.

(* Subpatterns::new: each subpattern is wrapped in (?u:..) / (?-u:..) after substituting the ones
   defined before it; a later duplicate replaces the stored text (HashMap::insert) *)
Definition wrap (unicode : bool) (t : list N) : list N :=
  (if unicode then [40; 63; 117; 58] else [40; 63; 45; 117; 58]) ++ t ++ [41].

Fixpoint build_env (defs : list (list N * bool * list N)) (env : list (list N * list N)) : list (list N * list N) :=
  match defs with
  | [] => env
  | (name, unicode, src) :: ds =>
      match subst (S (length (wrap unicode src))) env (wrap unicode src) with
      | Some t => build_env ds ((name, t) :: env)
      | None => build_env ds env             (* error reported, subpattern not stored *)
      end
  end.

(* s contains no group at any position (the hypothesis of C11_subst_group_free) *)
Fixpoint group_free (s : list N) : Prop :=
  match s with [] => True | c :: r => match_group s = None /\ group_free r end.

