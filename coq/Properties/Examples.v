(* Properties/Examples.v — non-vacuity: the hypotheses of the engine theorems are satisfiable.
   The terms below are the DFA and the state graph captured from the real Graph::new for the curated
   definition LookEnd  (#[regex("a$")] AEnd, #[token("b")] B, #[regex("a+c")] Ac)  — a definition
   with a look-ahead, a late accept and an end-of-input edge — together with the untrusted hints; each
   certificate is evaluated by the kernel and the generic engine theorems are instantiated with them;
   further down a second, look-around-free definition (the ex2 terms) for the strict promptness certificate.
   (The terms are lib/cap.py's output for these captures; the per-run instances are regenerated from
   /repo on every check.) *)
From Coq Require Import List NArith.
From LogosV Require Import Engine.Model Engine.Cert Engine.Build Engine.Run Engine.GraphBuild Engine.ByteClass Engine.Prog Engine.Dedup Engine.Rename Engine.StreamProofs Engine.Utf8Stream Properties.All.
Import ListNotations.
Open Scope N_scope.

Definition ex_d := mk_dfa [(16, [], 0, [1]); (24, [], 0, [0]); (32, [], 0, [2]); (40, [(97,97,64); (98,98,72)], 0, []); (48, [(97,97,48); (99,99,56)], 0, []); (56, [(0,255,32)], 32, []); (64, [(97,97,48); (99,99,56)], 24, []); (72, [(0,255,16)], 16, [])] 40 [2; 2; 4].
Definition ex_g := mk_graph [(0, None, (Some 0), [], None); (1, None, None, [([(97,97)], 4); ([(98,98)], 5)], None); (2, None, None, [([(97,97)], 2); ([(99,99)], 3)], None); (3, (Some 2), None, [], None); (4, None, None, [([(97,97)], 2); ([(99,99)], 3)], (Some 0)); (5, (Some 1), None, [], None)] 1.
Definition ex_V := mk_pairing [(0, [24]); (1, [40]); (2, [48]); (3, [56]); (4, [64]); (5, [72])].
Definition ex_D := mk_pset [0; 16; 24; 32].
Definition ex_R := mk_rank [(40,1); (48,1); (56,0); (64,0); (72,0)].
Definition ex_PU := mk_upairs [(0, [0;1;2;3;4;5;6;7]); (16, [0;1;2;3;4;5;6;7]); (32, [0;1;2;3;4;5;6;7]); (40, [0]); (48, [0]); (56, [0]); (64, [0]); (72, [0])].
Definition ex_RH := mk_reach [(16, (72, 0, 2)); (24, (64, 256, 2)); (32, (56, 0, 3)); (48, (64, 97, 2)); (56, (64, 99, 2)); (64, (40, 97, 1)); (72, (40, 98, 1))].

(* the modelled Graph::new (passes 1-4, then the de-duplication loop) is compared with the captured graph;
   the relation is the pairing read backwards *)
Definition ex_Vs := mk_pairing [(24, [0]); (40, [1]); (48, [2]); (56, [3]); (64, [4]); (72, [5])].
(* the program parsed by lib/genparse.py from the code the tail-call generator emits for LookEnd *)
Definition ex_p := mk_prog [[0; 0; 0; 0; 0; 0; 0; 0; 0; 0; 0; 0; 0; 0; 0; 0; 0; 0; 0; 0; 0; 0; 0; 0; 0; 0; 0; 0; 0; 0; 0; 0; 0; 0; 0; 0; 0; 0; 0; 0; 0; 0; 0; 0; 0; 0; 0; 0; 0; 0; 0; 0; 0; 0; 0; 0; 0; 0; 0; 0; 0; 0; 0; 0; 0; 0; 0; 0; 0; 0; 0; 0; 0; 0; 0; 0; 0; 0; 0; 0; 0; 0; 0; 0; 0; 0; 0; 0; 0; 0; 0; 0; 0; 0; 0; 0; 0; 1; 0; 0; 0; 0; 0; 0; 0; 0; 0; 0; 0; 0; 0; 0; 0; 0; 0; 0; 0; 0; 0; 0; 0; 0; 0; 0; 0; 0; 0; 0; 0; 0; 0; 0; 0; 0; 0; 0; 0; 0; 0; 0; 0; 0; 0; 0; 0; 0; 0; 0; 0; 0; 0; 0; 0; 0; 0; 0; 0; 0; 0; 0; 0; 0; 0; 0; 0; 0; 0; 0; 0; 0; 0; 0; 0; 0; 0; 0; 0; 0; 0; 0; 0; 0; 0; 0; 0; 0; 0; 0; 0; 0; 0; 0; 0; 0; 0; 0; 0; 0; 0; 0; 0; 0; 0; 0; 0; 0; 0; 0; 0; 0; 0; 0; 0; 0; 0; 0; 0; 0; 0; 0; 0; 0; 0; 0; 0; 0; 0; 0; 0; 0; 0; 0; 0; 0; 0; 0; 0; 0; 0; 0; 0; 0; 0; 0; 0; 0; 0; 0; 0; 0; 0; 0; 0; 0; 0; 0]] [(1%positive, {| p_loop := None; p_setup := PAccept 0; p_fork := PChain []; p_prefix := false; p_roottest := false; p_eoi := None |}); (2%positive, {| p_loop := None; p_setup := PNoSetup; p_fork := PChain [(PCmp [{| c_lo := 97; c_hi := 97; c_ex := [] |}], 5%positive); (PCmp [{| c_lo := 98; c_hi := 98; c_ex := [] |}], 6%positive)]; p_prefix := true; p_roottest := true; p_eoi := None |}); (3%positive, {| p_loop := Some (0, 1); p_setup := PNoSetup; p_fork := PChain [(PCmp [{| c_lo := 99; c_hi := 99; c_ex := [] |}], 4%positive)]; p_prefix := true; p_roottest := false; p_eoi := None |}); (4%positive, {| p_loop := None; p_setup := PEarly 2; p_fork := PChain []; p_prefix := false; p_roottest := false; p_eoi := None |}); (5%positive, {| p_loop := None; p_setup := PNoSetup; p_fork := PChain [(PCmp [{| c_lo := 97; c_hi := 97; c_ex := [] |}], 3%positive); (PCmp [{| c_lo := 99; c_hi := 99; c_ex := [] |}], 4%positive)]; p_prefix := true; p_roottest := false; p_eoi := Some 1%positive |}); (6%positive, {| p_loop := None; p_setup := PEarly 1; p_fork := PChain []; p_prefix := false; p_roottest := false; p_eoi := None |})] 2%positive 2%positive.
(* leaves listed in another order (C18): LookEnd with its first two leaves exchanged, translated back *)
Definition ex_swap : list leaf := [1; 0; 2].
Definition ex_g_swapped := rename_graph (leaf_map ex_swap) ex_g.
Definition ex_Id := mk_pairing [(0, [0]); (1, [1]); (2, [2]); (3, [3]); (4, [4]); (5, [5])].

(* All boolean checks on this definition are evaluated in one list and the statements below are read off it by
   position: the independent checker repeats every evaluation with its lazy machine, where each separate
   evaluation pays again for all_bytes (about 30 million words) and for the graph that Graph::new builds. *)
Lemma entry (l : list bool) n b : forallb id l = true -> nth_error l n = Some b -> b = true.
Proof. intros H E. rewrite forallb_forall in H. exact (H b (nth_error_In l n E)). Qed.

Lemma ex_checks :
  forallb id (let b := build ex_d in
    [dfa_ok ex_d; sim_ok ex_d ex_g ex_V ex_D; exact_ok ex_d ex_g ex_V ex_R ex_D; wf_graph ex_g;
     prompt_ok ex_d ex_g ex_V ex_R; utf8_ok ex_d ex_PU; utf8_strict_ok ex_d ex_PU ex_D; reach_ok ex_d ex_RH;
     build_side ex_d; gsim_ok b ex_g ex_Vs; gsim_ok (dedup b) ex_g ex_Vs; prog_ok ex_g ex_p;
     gsim_ok ex_g (rename_graph (leaf_map ex_swap) ex_g_swapped) ex_Id; negb (gsim_ok ex_g ex_g_swapped ex_Id)]) = true.
Proof. vm_compute. reflexivity. Qed.

Example ex_dfa_ok : dfa_ok ex_d = true. Proof. exact (entry _ 0 _ ex_checks eq_refl). Qed.
Example ex_sim_ok : sim_ok ex_d ex_g ex_V ex_D = true. Proof. exact (entry _ 1 _ ex_checks eq_refl). Qed.
Example ex_exact_ok : exact_ok ex_d ex_g ex_V ex_R ex_D = true. Proof. exact (entry _ 2 _ ex_checks eq_refl). Qed.
Example ex_wf_graph : wf_graph ex_g = true. Proof. exact (entry _ 3 _ ex_checks eq_refl). Qed.
Example ex_prompt_ok : prompt_ok ex_d ex_g ex_V ex_R = true. Proof. exact (entry _ 4 _ ex_checks eq_refl). Qed.
Example ex_utf8_ok : utf8_ok ex_d ex_PU = true. Proof. exact (entry _ 5 _ ex_checks eq_refl). Qed.
Example ex_utf8_strict_ok : utf8_strict_ok ex_d ex_PU ex_D = true. Proof. exact (entry _ 6 _ ex_checks eq_refl). Qed.
Example ex_reach_ok : reach_ok ex_d ex_RH = true. Proof. exact (entry _ 7 _ ex_checks eq_refl). Qed.

(* the generic engine theorems apply to this definition, for all inputs *)
Definition ex_C01 := C01_maximal_munch ex_d ex_g ex_V ex_D ex_dfa_ok ex_sim_ok.
Definition ex_C02 := C02_error_span ex_d ex_g ex_V ex_R ex_D ex_dfa_ok ex_sim_ok ex_exact_ok.
Definition ex_C02b := C02_stop_exact ex_d ex_g ex_V ex_R ex_D ex_dfa_ok ex_sim_ok ex_exact_ok.
Definition ex_C03 := C03_tiling ex_d ex_g ex_V ex_R ex_D ex_dfa_ok ex_sim_ok ex_exact_ok.
Definition ex_C04 := C04_spans_on_boundaries ex_d ex_g ex_V ex_R ex_D ex_PU ex_dfa_ok ex_sim_ok ex_exact_ok ex_utf8_ok.
Definition ex_C06 := fun U => C06_opt_is_ref U ex_g.
Definition ex_C08 := C08_no_silent_choice ex_d ex_dfa_ok.
Definition ex_C12 := C12_inside_char_error ex_d ex_g ex_V ex_R ex_D ex_PU ex_dfa_ok ex_sim_ok ex_exact_ok ex_utf8_ok ex_utf8_strict_ok.

(* and the model computes what one expects on concrete inputs: "aab" -> Err 0..2 (a+c stays viable until the b), B 2..3;
   "aac" -> Ac 0..3; "a" -> AEnd 0..1 *)
Example ex_run_aab : run_ref ex_g true [0;0;0] false [97;97;98] = [0;0;0;2;0;0; 1;2;2;3;0;3; 2;3;3].
Proof. vm_compute. reflexivity. Qed.
Example ex_run_aac : run_ref ex_g true [0;0;0] false [97;97;99] = [1;3;0;3;0;0; 2;3;3].
Proof. vm_compute. reflexivity. Qed.
Example ex_run_a : run_ref ex_g true [0;0;0] false [97] = [1;1;0;1;0;2; 2;1;1].
Proof. vm_compute. reflexivity. Qed.
(* partial mode: on the prefix "a" nothing is committed (more input may follow) *)
Example ex_partial_a : run_ref ex_g true [0;0;0] true [97] = [2;0;0].
Proof. vm_compute. reflexivity. Qed.
(* partial mode on "ab": the error and the token are determined by the prefix and are committed *)
Example ex_partial_ab : run_ref ex_g true [0;0;0] true [97;98] = [0;0;0;1;0;0; 1;2;1;2;0;3; 2;2;2].
Proof. vm_compute. reflexivity. Qed.

(* the certificate-free routes on the same definition *)
Example ex_build_side : build_side ex_d = true. Proof. exact (entry _ 8 _ ex_checks eq_refl). Qed.
Example ex_gsim : gsim_ok (build ex_d) ex_g ex_Vs = true. Proof. exact (entry _ 9 _ ex_checks eq_refl). Qed.
Example ex_gsim_dedup : gsim_ok (dedup (build ex_d)) ex_g ex_Vs = true. Proof. exact (entry _ 10 _ ex_checks eq_refl). Qed.
Definition ex_C01_built := C01_maximal_munch_built ex_d ex_g ex_Vs ex_build_side ex_gsim.
Definition ex_C01_full := C01_full_construction_correct ex_d ex_g ex_Vs ex_build_side ex_gsim_dedup.

Example ex_prog_ok : prog_ok ex_g ex_p = true. Proof. exact (entry _ 11 _ ex_checks eq_refl). Qed.
Definition ex_C06_emitted := fun U isprefix start rest => C06_emitted_is_ref U ex_g ex_p isprefix start rest ex_prog_ok ex_wf_graph.
Definition ex_C01_emitted := fun U => C01_emitted_code_maximal_munch U ex_d ex_g ex_Vs ex_p ex_build_side ex_gsim_dedup ex_wf_graph ex_prog_ok.
(* the parsed program run on "aac": the same regions as the reference semantics above *)
Example ex_run_prog_aac : run_prog 8 ex_p 6 true [0;0;0] false [97;97;99] = [1;3;0;3;0;0; 2;3;3].
Proof. vm_compute. reflexivity. Qed.

Example ex_reordered : gsim_ok ex_g (rename_graph (leaf_map ex_swap) ex_g_swapped) ex_Id = true. Proof. exact (entry _ 12 _ ex_checks eq_refl). Qed.
Example ex_reordered_differs : gsim_ok ex_g ex_g_swapped ex_Id = false. Proof. exact (proj1 (Bool.negb_true_iff _) (entry _ 13 _ ex_checks eq_refl)). Qed.
Definition ex_C18_reordered := C18_reordered_leaves_agree ex_g ex_g_swapped ex_swap ex_Id ex_reordered.

(* chunked feeding (C07): "aacab" fed as "a", "aac", "aaca", then whole: the skips and items of the one-shot lexing *)
Definition ex_act : leaf -> N -> N -> action * N := fun _ _ _ => (AEmit, 0).
Definition ex_id : N -> N := fun i => i.
Example ex_chunked : chunked ex_g ex_act ex_id [97;97;99;97;98] (fun _ => ex_id) [1%nat; 3%nat; 4%nat] 0
                     = lex_all (attempt_ref ex_g) ex_act ex_id [97;97;99;97;98] false.
Proof. vm_compute. reflexivity. Qed.
Example ex_chunked_value : fst (lex_all (attempt_ref ex_g) ex_act ex_id [97;97;99;97;98] false)
                           = [RItem (Item true (Some 2) 0 3); RItem (Item false None 3 4); RItem (Item true (Some 1) 4 5)].
Proof. vm_compute. reflexivity. Qed.
Definition ex_C07_chunked := C07_chunked_is_oneshot ex_d ex_g ex_V ex_R ex_D ex_dfa_ok ex_sim_ok ex_exact_ok.

(* str mode vs byte mode on the whole stream (C12): "a" then U+00E9 (C3 A9) then "b": str mode gives the errors 0..1 and 1..3,
   byte mode 0..1, 1..2 and 2..3; cut into bytes they are the same stream *)
Example ex_streams : split_errs (fst (lex_all (attempt_ref ex_g) ex_act (fb_str [97;195;169;98]) [97;195;169;98] false))
                     = [RItem (Item false None 0 1); RItem (Item false None 1 2); RItem (Item false None 2 3); RItem (Item true (Some 1) 3 4)].
Proof. vm_compute. reflexivity. Qed.
Example ex_streams_str : fst (lex_all (attempt_ref ex_g) ex_act (fb_str [97;195;169;98]) [97;195;169;98] false)
                     = [RItem (Item false None 0 1); RItem (Item false None 1 3); RItem (Item true (Some 1) 3 4)].
Proof. vm_compute. reflexivity. Qed.
Definition ex_C12_streams := C12_streams_agree ex_d ex_g ex_V ex_R ex_D ex_PU ex_dfa_ok ex_sim_ok ex_exact_ok ex_utf8_ok ex_utf8_strict_ok.

Definition ex_C07_emitted_chunked := fun U => C07_emitted_chunked_is_oneshot U ex_g ex_p ex_prog_ok ex_wf_graph ex_d ex_V ex_R ex_D ex_dfa_ok ex_sim_ok ex_exact_ok.

(* a look-around-free definition (corpus/front/conflicts.rs LowerTieBelowTopSplit: [ab] | b (priority 9) | [bc]):
   the strict promptness certificate holds, the root waits in partial mode, and C07_waits_only_if_open says why:
   a match is still reachable from a successor of its DFA state *)
Definition ex2_d := mk_dfa [(16, [], 0, [2]); (24, [], 0, [0; 1; 2]); (32, [], 0, [0]); (40, [(97,97,56); (98,98,64); (99,99,48)], 0, []); (48, [(0,255,16)], 16, []); (56, [(0,255,32)], 32, []); (64, [(0,255,24)], 24, [])] 40 [2; 9; 2].
Definition ex2_g := mk_graph [(0, None, None, [([(99,99)], 1); ([(97,97)], 2); ([(98,98)], 3)], None); (1, (Some 2), None, [], None); (2, (Some 0), None, [], None); (3, (Some 1), None, [], None)] 0.
Definition ex2_V := mk_pairing [(0, [40]); (1, [48]); (2, [56]); (3, [64])].
Definition ex2_D := mk_pset [0; 16; 24; 32].
Definition ex2_R := mk_rank [(40,1); (48,0); (56,0); (64,0)].
Lemma ex2_checks :
  forallb id [dfa_ok ex2_d; sim_ok ex2_d ex2_g ex2_V ex2_D; exact_ok ex2_d ex2_g ex2_V ex2_R ex2_D;
              prompt_strict_ok ex2_d ex2_g ex2_V ex2_R; inV ex2_V 1%positive 41%positive] = true.
Proof. vm_compute. reflexivity. Qed.
Example ex2_dfa_ok : dfa_ok ex2_d = true. Proof. exact (entry _ 0 _ ex2_checks eq_refl). Qed.
Example ex2_sim_ok : sim_ok ex2_d ex2_g ex2_V ex2_D = true. Proof. exact (entry _ 1 _ ex2_checks eq_refl). Qed.
Example ex2_exact_ok : exact_ok ex2_d ex2_g ex2_V ex2_R ex2_D = true. Proof. exact (entry _ 2 _ ex2_checks eq_refl). Qed.
Example ex2_prompt_strict_ok : prompt_strict_ok ex2_d ex2_g ex2_V ex2_R = true. Proof. exact (entry _ 3 _ ex2_checks eq_refl). Qed.
Example ex2_root_paired : inV ex2_V 1%positive 41%positive = true. Proof. exact (entry _ 4 _ ex2_checks eq_refl). Qed.
Example ex2_root_waits : option_map partial_mode_test (gfind ex2_g 1%positive) = Some true. Proof. vm_compute. reflexivity. Qed.
Definition ex2_C07_strict := C07_prompt_strict ex2_d ex2_g ex2_V ex2_R 1%positive 41%positive.
Definition ex2_C07_open := C07_waits_only_if_open ex2_d ex2_g ex2_V ex2_R ex2_D ex2_dfa_ok ex2_sim_ok ex2_exact_ok 1%positive 41%positive.
