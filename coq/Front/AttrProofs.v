(* Front/AttrProofs.v — the tokenizer splits a comma-joined list of well-formed items into exactly
   those items, in every position (after the repair of F5), and named arguments set independent fields
   of the definition (C18). *)
From Coq Require Import List NArith Lia Permutation.
From LogosV Require Import Front.AttrParser.
Import ListNotations.
Local Open Scope N_scope.

Lemma collect_tail_app v tl rest : comma_free v -> collect_tail tl = ([], rest) ->
  collect_tail (v ++ tl) = (v, rest).
Proof.
  intros Hv Htl. induction Hv as [|t v Ht _ IH]; cbn [app collect_tail]; [exact Htl|].
  rewrite Ht, IH. reflexivity.
Qed.

(* [tl] is what can follow an item inside a joined list: nothing, or the separator and more tokens;
   [collect_tail tl = ([], rest)] says so in the tokenizer's own terms *)
Inductive item_follows : list tok -> list tok -> Prop :=
| item_follows_end : item_follows [] []
| item_follows_sep rest : item_follows (TPunct comma false :: rest) rest.

Lemma item_follows_tail tl rest : item_follows tl rest -> collect_tail tl = ([], rest).
Proof. intros []; reflexivity. Qed.

Lemma next_item_render it tl rest : item_ok it -> item_follows tl rest ->
  next_item true (render it ++ tl) = Some (sem it, rest).
Proof.
  intros H Htl. pose proof (item_follows_tail tl rest Htl) as Hc.
  destruct it as [n v|n g|n l|n k v|ts]; cbn [item_ok render sem app].
  - cbn. rewrite (collect_tail_app v tl rest H Hc). reflexivity.
  - cbn. rewrite Hc. reflexivity.
  - cbn. rewrite Hc. reflexivity.
  - cbn. rewrite (collect_tail_app v tl rest H Hc). reflexivity.
  - destruct H as [Hf Hs]. destruct Hf as [|t ts Ht Hts]; [contradiction|].
    destruct t as [s|c j|s|d g].
    2-4: cbn [app next_item]; rewrite (collect_tail_app ts tl rest Hts Hc); reflexivity.
    (* starts with an identifier: a lone one, or a path a::b *)
    destruct Hts as [|t2 ts2 Ht2 Hts2].
    + destruct Htl; reflexivity.
    + destruct Hs as [Hne Hp]. destruct t2 as [|c2 j2| |]; try contradiction.
      cbn [app next_item]. rewrite Ht2, Hne, (collect_tail_app ts2 tl rest Hts2 Hc). reflexivity.
Qed.

Lemma render_nonempty it : item_ok it -> render it <> [].
Proof. destruct it; try discriminate. intros [_ H]. destruct ts; [contradiction|discriminate]. Qed.

Lemma join_cons it its :
  join (it :: its) = render it ++ match its with [] => [] | _ => TPunct comma false :: join its end.
Proof. destruct its; [symmetry; apply app_nil_r|reflexivity]. Qed.

(* the attribute text is the items joined by commas: the tokenizer returns exactly the items *)
Theorem parse_join_items : forall its fuel, Forall item_ok its -> (length its < fuel)%nat ->
  parse_all true fuel (join its) = map sem its.
Proof.
  intros its fuel Hok. revert fuel. induction Hok as [|it its Hit _ IH]; intros fuel Hf.
  - destruct fuel; reflexivity.
  - destruct fuel as [|fuel]; [inversion Hf|]. cbn [length] in Hf.
    rewrite join_cons. cbn [parse_all map].
    rewrite (next_item_render it _ (join its) Hit) by (destruct its; constructor).
    rewrite (IH fuel) by lia. reflexivity.
Qed.

(* named_attr by field: an argument with a known name stores its tokens in that field of the definition, and a
   field stored a second time counts one error (ignore(..) is a flag and may be repeated) *)
Definition attr_arg (n : nested) : list tok :=
  match n with NAssign _ v | NGroup _ v => v | _ => [] end.
Definition dup_err (o : option (list tok)) : N := match o with Some _ => 1 | None => 0 end.
Definition attr_assign (f : fld) (v : list tok) (d : defn) : defn :=
  match f with
  | FPrio => {| f_prio := Some v; f_cb := f_cb d; f_icase := f_icase d; f_greedy := f_greedy d;
                f_errs := f_errs d + dup_err (f_prio d) |}
  | FCb => {| f_prio := f_prio d; f_cb := Some v; f_icase := f_icase d; f_greedy := f_greedy d;
              f_errs := f_errs d + dup_err (f_cb d) |}
  | FGreedy => {| f_prio := f_prio d; f_cb := f_cb d; f_icase := f_icase d; f_greedy := Some v;
                  f_errs := f_errs d + dup_err (f_greedy d) |}
  | FIgnore => {| f_prio := f_prio d; f_cb := f_cb d; f_icase := true; f_greedy := f_greedy d; f_errs := f_errs d |}
  end.

Lemma named_attr_field d n :
  named_attr d n = match field_of n with Some f => attr_assign f (attr_arg n) d | None => err d end.
Proof.
  unfold named_attr. destruct n as [ | |name v| |name g| ]; cbn [field_of attr_arg]; try reflexivity.
  - destruct (bytes_eqb name s_priority); [|destruct (bytes_eqb name s_callback); [|destruct (bytes_eqb name s_allow_greedy)]];
      cbn [attr_assign]; [| | |reflexivity].
    + destruct (f_prio d); rewrite ?N.add_0_r; reflexivity.
    + destruct (f_cb d); rewrite ?N.add_0_r; reflexivity.
    + destruct (f_greedy d); rewrite ?N.add_0_r; reflexivity.
  - destruct (bytes_eqb name s_ignore); reflexivity.
Qed.

(* distinct fields are independent: each assignment reads and writes its own field and adds to the error count *)
Lemma attr_assign_comm f g u v d : f <> g ->
  attr_assign f u (attr_assign g v d) = attr_assign g v (attr_assign f u d).
Proof.
  intros H. destruct f, g; try contradiction; cbn; try reflexivity.
  all: rewrite N.add_shuffle0; reflexivity.
Qed.

Theorem named_args_commute : forall l1 l2, Permutation l1 l2 ->
  NoDup (map field_of l1) -> Forall (fun n => field_of n <> None) l1 ->
  forall d, fold_left named_attr l1 d = fold_left named_attr l2 d.
Proof.
  intros l1 l2 HP. induction HP as [|x l l' HP IH|x y l|l l' l'' HP1 IH1 HP2 IH2]; intros Hnd Hk d.
  - reflexivity.
  - cbn [fold_left]. apply IH; [exact (proj2 (proj1 (NoDup_cons_iff _ _) Hnd))|exact (Forall_inv_tail Hk)].
  - cbn [fold_left]. f_equal. rewrite !named_attr_field.
    pose proof (Forall_inv Hk) as Hy. pose proof (Forall_inv (Forall_inv_tail Hk)) as Hx. cbn beta in Hy, Hx.
    cbn [map] in Hnd. apply NoDup_cons_iff in Hnd as [Hnin _].
    destruct (field_of y) as [fy|]; [|contradiction]. destruct (field_of x) as [fx|]; [|contradiction].
    apply attr_assign_comm. intros ->. apply Hnin. left. reflexivity.
  - rewrite IH1 by assumption. apply IH2.
    + apply (Permutation_NoDup (Permutation_map field_of HP1)). exact Hnd.
    + apply (Permutation_Forall HP1). exact Hk.
Qed.
