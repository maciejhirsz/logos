(* Engine/OptProofs.v — the optimised executor (what the generators emit) computes what the
   reference walk computes (C06), and its read log is monotone and linear (C20, C05). *)
From Coq Require Import List Arith NArith Bool Lia.
From LogosV Require Import Engine.Model Engine.Cert Engine.ExecOpt Engine.CertProofs.
Import ListNotations.
Local Open Scope N_scope.

Lemma record_idem st o1 o2 c : record st o2 (record st o1 c) = record st o2 c.
Proof. unfold record. destruct (g_early st); [reflexivity|]. destruct (g_accept st); reflexivity. Qed.

Lemma walk_record_irrel g p start hops r s st o c1 c2 :
  gfind g s = Some st -> record st o c1 = record st o c2 ->
  walk g p start hops r s o c1 = walk g p start hops r s o c2.
Proof.
  intros Hst H. destruct r as [|b r]; cbn [walk].
  - rewrite !at_eoi_eq, Hst, H. reflexivity.
  - rewrite Hst, H. reflexivity.
Qed.

Lemma walk_self_skip g p start hops s st : gfind g s = Some st ->
  forall pre r off c,
  Forall (fun b => edge_first (g_edges st) b = Some s) pre ->
  walk g p start hops (pre ++ r) s off c = walk g p start hops r s (off + N.of_nat (length pre)) c.
Proof.
  intros Hst. induction pre as [|b pre IH]; intros r off c HF; cbn [app length].
  - rewrite N.add_0_r. reflexivity.
  - apply Forall_cons_iff in HF as [Hb HF']. cbn [walk]. rewrite Hst, Hb, (IH r _ _ HF').
    replace (off + 1 + N.of_nat (length pre)) with (off + N.of_nat (S (length pre))) by lia.
    (* the context recorded on the way differs from c only in what the next record overwrites *)
    apply (walk_record_irrel g p start hops r s st _ _ _ Hst), record_idem.
Qed.

Definition skipped (C : ranges) (rest : list byte) (off : N) (r' : list byte) (o' : N) : Prop :=
  exists pre, rest = pre ++ r' /\ Forall (fun b => in_ranges b C = true) pre /\ o' = off + N.of_nat (length pre) /\
              match r' with [] => True | b :: _ => in_ranges b C = false end.

Lemma skipped_stop C rest off : match rest with [] => True | b :: _ => in_ranges b C = false end ->
  skipped C rest off rest off.
Proof.
  intros H. exists []. split; [reflexivity|]. split; [constructor|]. split; [symmetry; apply N.add_0_r|exact H].
Qed.

Lemma skipped_app C pre r off r' o' : Forall (fun b => in_ranges b C = true) pre ->
  skipped C r (off + N.of_nat (length pre)) r' o' -> skipped C (pre ++ r) off r' o'.
Proof.
  intros F (pre' & -> & F' & -> & S). exists (pre ++ pre').
  split; [apply app_assoc|]. split; [exact (proj2 (Forall_app _ _ _) (conj F F'))|].
  split; [rewrite app_length; lia|exact S].
Qed.

Lemma fast_single_sem C : forall rest off,
  let '(r', o', _) := fast_single C rest off in skipped C rest off r' o'.
Proof.
  induction rest as [|b rest IH]; intros off; cbn [fast_single]; [exact (skipped_stop C [] off I)|].
  destruct (in_ranges b C) eqn:E; [|exact (skipped_stop C (b :: rest) off E)].
  specialize (IH (off + 1)). destruct (fast_single C rest (off + 1)) as [[r1 o1] t1].
  apply (skipped_app C [b]); [constructor; [exact E|constructor]|exact IH].
Qed.

Lemma first_out_spec C : forall n l,
  match first_out C l n with
  | Some i => Forall (fun b => in_ranges b C = true) (firstn i l) /\ length (firstn i l) = i /\
              match skipn i l with [] => False | b :: _ => in_ranges b C = false end
  | None => Forall (fun b => in_ranges b C = true) (firstn n l)
  end.
Proof.
  induction n as [|n IH]; intros l; cbn [first_out]; [constructor|].
  destruct l as [|b l]; [constructor|].
  destruct (in_ranges b C) eqn:E.
  2:{ split; [constructor|]. split; [reflexivity|exact E]. }
  specialize (IH l). destruct (first_out C l n) as [j|]; cbn [option_map firstn skipn length]; [|constructor; assumption].
  destruct IH as (F & L & S). split; [constructor; assumption|]. split; [f_equal; exact L|exact S].
Qed.

Lemma fast_chunk_sem U C : forall fuel rest off,
  let '(r', o', _) := fast_chunk fuel U C rest off in skipped C rest off r' o'.
Proof.
  induction fuel as [|fuel IH]; intros rest off; cbn [fast_chunk]; [apply fast_single_sem|].
  destruct (U <=? length rest)%nat eqn:EU.
  - apply Nat.leb_le in EU. pose proof (first_out_spec C U rest) as Hfo. destruct (first_out C rest U) as [i|].
    + destruct Hfo as (F & L & S). exists (firstn i rest).
      split; [symmetry; apply firstn_skipn|]. split; [exact F|]. split; [rewrite L; reflexivity|].
      destruct (skipn i rest); [exact I|exact S].
    + specialize (IH (skipn U rest) (off + N.of_nat U)).
      destruct (fast_chunk fuel U C (skipn U rest) (off + N.of_nat U)) as [[r1 o1] t1].
      rewrite <- (firstn_skipn U rest). apply skipped_app; [exact Hfo|].
      rewrite firstn_length_le by exact EU. exact IH.
  - pose proof (fast_single_sem C rest off) as H. destruct (fast_single C rest off) as [[r1 o1] t1]. exact H.
Qed.

(* The targets of the edges whose class holds x, in order.  Every lookup is read off this list; on a well-formed
   state it has at most one element, so the lookups agree. *)
Fixpoint sel (es : list (ranges * sid)) (x : N) : list sid :=
  match es with [] => [] | (rs, t) :: es' => if in_ranges x rs then t :: sel es' x else sel es' x end.

Lemma first_sel es x : edge_first es x = hd_error (sel es x).
Proof.
  induction es as [|[rs t] es IH]; cbn [edge_first sel]; [reflexivity|]. destruct (in_ranges x rs); [reflexivity|exact IH].
Qed.

Lemma count_sel es x : count_edges es x = length (sel es x).
Proof.
  induction es as [|[rs t] es IH]; cbn [count_edges sel]; [reflexivity|]. destruct (in_ranges x rs); cbn [length]; lia.
Qed.

Lemma last_sel es x : forall acc, edge_last es x acc = fold_left (fun _ t => Some t) (sel es x) acc.
Proof.
  induction es as [|[rs t] es IH]; intros acc; cbn [edge_last sel]; [reflexivity|]. destruct (in_ranges x rs); apply IH.
Qed.

Lemma sel_noself s es x : sel (edges_noself s es) x = filter (fun t => negb (t =? s)%positive) (sel es x).
Proof.
  induction es as [|[rs t] es IH]; cbn [edges_noself filter sel snd]; [reflexivity|]. fold (edges_noself s es).
  destruct (in_ranges x rs) eqn:E; cbn [filter]; destruct (negb (t =? s)%positive); cbn [sel]; rewrite ?E, IH; reflexivity.
Qed.

Lemma sel_targets es x t : In t (sel es x) -> In t (map snd es).
Proof.
  induction es as [|[rs u] es IH]; cbn [sel map snd]; [exact id|].
  destruct (in_ranges x rs); [|intros H; right; exact (IH H)].
  intros [H|H]; [left; exact H|right; exact (IH H)].
Qed.

Lemma self_sel s x : forall es, NoDup (map snd es) ->
  existsb (fun t => (t =? s)%positive) (sel es x) = in_ranges x (match self_class s es with Some C => C | None => [] end).
Proof.
  induction es as [|[rs t] es IH]; cbn [map snd sel self_class]; intros Hnd; [reflexivity|].
  apply NoDup_cons_iff in Hnd as [Hnin Hnd']. destruct (Pos.eqb_spec t s) as [->|Hne].
  - destruct (in_ranges x rs); cbn [existsb]; [rewrite Pos.eqb_refl; reflexivity|].
    apply not_true_is_false. intros E. apply existsb_exists in E as [u [Hu E]]. apply Pos.eqb_eq in E. subst u.
    destruct Hnin. exact (sel_targets es x s Hu).
  - rewrite <- (IH Hnd'). destruct (in_ranges x rs); cbn [existsb]; [rewrite (proj2 (Pos.eqb_neq t s) Hne)|]; reflexivity.
Qed.

Definition self_ranges (s : sid) (st : gstate) : ranges :=
  match self_class s (g_edges st) with Some C => C | None => [] end.

Lemma lookup_ref s st b : wf_state st = true -> byte_ok b ->
  edge_first (g_edges st) b = if in_ranges b (self_ranges s st) then Some s else fork_lookup s st b.
Proof.
  intros Hwf Hb. destruct (proj1 (wf_state_iff st) Hwf) as [Hc Hnd]. specialize (Hc b Hb). rewrite count_sel in Hc.
  unfold self_ranges. rewrite <- (self_sel s b _ Hnd).
  unfold fork_lookup. rewrite last_sel, !first_sel, sel_noself.
  destruct (sel (g_edges st) b) as [|t [|]]; cbn [length existsb filter orb] in *; [| |lia].
  - destruct (2 <? _)%nat; reflexivity.
  - destruct (t =? s)%positive eqn:E; [apply Pos.eqb_eq in E; subst t; reflexivity|]. destruct (2 <? _)%nat; reflexivity.
Qed.

Lemma fast_loop_sem U s st rest off :
  let '(rest1, off1, _) := fast_loop U s st rest off in skipped (self_ranges s st) rest off rest1 off1.
Proof.
  unfold fast_loop, self_ranges. destruct (self_class s (g_edges st)) as [C|]; [apply fast_chunk_sem|].
  apply skipped_stop. destruct rest; [exact I|reflexivity].
Qed.

Lemma fst_visit (k : stop * rlog) tr1 e : fst (let (r, tr) := k in (r, tr1 ++ e :: tr)) = fst k.
Proof. destruct k; reflexivity. Qed.

Theorem walk_opt_ref U g p start : wf_graph g = true ->
  forall fuel hops rest s off c, bytes_ok rest -> (length rest + hops < fuel)%nat ->
  fst (walk_opt U g p start fuel hops rest s off c) = walk g p start hops rest s off c.
Proof.
  intros Hwf. induction fuel as [|fuel IH]; intros hops rest s off c Hw Hf; [lia|].
  cbn [walk_opt].
  destruct (gfind g s) as [st|] eqn:Est.
  2:{ destruct rest; cbn [walk fst]; [rewrite at_eoi_eq|]; rewrite Est; reflexivity. }
  pose proof (proj1 (wf_graph_iff g) Hwf s st Est) as Hwfs.
  (* the fast loop is invisible to the reference walk: over the bytes it skips the walk takes the self edge, and
     where it stops the fork decides as the reference lookup does *)
  pose proof (fast_loop_sem U s st rest off) as Hsk.
  destruct (fast_loop U s st rest off) as [[rest1 off1] tr1]. destruct Hsk as (pre & -> & HC & Hoff & Hstop).
  apply Forall_app in Hw as [Hwp Hw1]. rewrite app_length in Hf.
  rewrite (walk_self_skip g p start hops s st Est pre rest1 off c), <- Hoff.
  2:{ apply Forall_forall. intros b Hb. rewrite Forall_forall in HC, Hwp.
      rewrite (lookup_ref s st b Hwfs (Hwp b Hb)), (HC b Hb). reflexivity. }
  destruct rest1 as [|b rest']; cbn [walk].
  - rewrite fst_visit, at_eoi_eq, Est. unfold eoi_block.
    destruct (partial_mode_test st && p); [reflexivity|].
    destruct ((s =? g_root g)%positive && (off1 =? start)); [reflexivity|].
    destruct (g_eoi st) as [t|]; [|reflexivity].
    destruct hops as [|h]; [reflexivity|].
    apply IH; [constructor|cbn [length]; lia].
  - apply Forall_cons_iff in Hw1 as [Hb Hw']. rewrite Est, (lookup_ref s st b Hwfs Hb), Hstop.
    destruct (fork_lookup s st b) as [t|]; [|reflexivity].
    rewrite fst_visit. apply IH; [exact Hw'|cbn [length] in Hf; lia].
Qed.

Theorem attempt_opt_ref U g p start rest : wf_graph g = true -> bytes_ok rest ->
  fst (attempt_opt U g p start rest) = attempt_ref g p start rest.
Proof.
  intros Hwf Hw. unfold attempt_opt, attempt_ref. apply walk_opt_ref; [exact Hwf|exact Hw|lia].
Qed.

Fixpoint sorted_ge (lo : N) (l : list N) : Prop :=
  match l with [] => True | x :: r => lo <= x /\ sorted_ge x r end.
Definition sorted_in (lo : N) (l : list N) (hi : N) : Prop :=
  sorted_ge lo l /\ Forall (fun x => x <= hi) l.

Definition offs (t : rlog) : list N := map fst t.

Lemma sorted_ge_weaken l lo lo' : lo' <= lo -> sorted_ge lo l -> sorted_ge lo' l.
Proof. destruct l as [|x r]; cbn [sorted_ge]; [tauto|]. intros H [S1 S2]. split; [lia|exact S2]. Qed.

Lemma sorted_in_nil lo hi : sorted_in lo [] hi.
Proof. split; constructor. Qed.

Lemma sorted_in_cons x x' l hi : x <= x' -> x' <= hi -> sorted_in x' l hi -> sorted_in x (x :: l) hi.
Proof.
  intros H1 H2 [S F]. split; [|constructor; [lia|exact F]].
  cbn [sorted_ge]. split; [apply N.le_refl|exact (sorted_ge_weaken l x' x H1 S)].
Qed.

Lemma sorted_in_app l1 : forall l2 a b c, a <= b -> b <= c ->
  sorted_in a l1 b -> sorted_in b l2 c -> sorted_in a (l1 ++ l2) c.
Proof.
  induction l1 as [|x r IH]; intros l2 a b c Hab Hbc [S1 F1] [S2 F2].
  - split; [exact (sorted_ge_weaken l2 b a Hab S2)|exact F2].
  - cbn in S1. destruct S1 as [Hax S1]. apply Forall_cons_iff in F1 as [Hxb F1'].
    destruct (IH l2 x b c Hxb Hbc (conj S1 F1') (conj S2 F2)) as [S F].
    split; [cbn [sorted_ge]; split; assumption|constructor; [lia|exact F]].
Qed.

(* the reads of a fast loop that starts at off and stops at o': in order within [off, o'], one per offset passed
   and at most [slack] more *)
Definition fast_log (off o' slack : N) (t : rlog) : Prop :=
  off <= o' /\ sorted_in off (offs t) o' /\ N.of_nat (length t) + off <= o' + slack.

Lemma fast_log_nil off o' slack : off <= o' -> fast_log off o' slack [].
Proof. intros H. split; [exact H|]. split; [apply sorted_in_nil|cbn [length]; lia]. Qed.

(* the read at off is paid for by the offsets passed up to off1 or by slack *)
Lemma fast_log_cons off off1 sz o' s s' t :
  fast_log off1 o' s t -> off <= off1 -> s + 1 + off <= s' + off1 -> fast_log off o' s' ((off, sz) :: t).
Proof.
  intros (Hle & S & L) H1 H2. split; [lia|]. split; [|cbn [length]; lia].
  apply (sorted_in_cons off off1); [exact H1|exact Hle|exact S].
Qed.

Lemma fast_log_one off o' s sz : off <= o' -> 1 <= s -> fast_log off o' s [(off, sz)].
Proof. intros H Hs. apply (fast_log_cons off off sz o' 0 s); [apply fast_log_nil; exact H|lia|lia]. Qed.

Lemma fast_single_log C s : 1 <= s -> forall rest off,
  let '(_, o', t) := fast_single C rest off in fast_log off o' s t.
Proof.
  intros Hs. induction rest as [|b rest IH]; intros off; cbn [fast_single]; [apply fast_log_one; lia|].
  destruct (in_ranges b C); [|apply fast_log_one; lia].
  specialize (IH (off + 1)). destruct (fast_single C rest (off + 1)) as [[r1 o1] t1].
  apply (fast_log_cons off (off + 1) 1 o1 s s t1 IH); lia.
Qed.

(* slack 2: the chunk read that fails and the single read that stops the loop pass no offset *)
Lemma fast_chunk_log U C : (1 <= U)%nat -> forall fuel rest off,
  let '(_, o', t) := fast_chunk fuel U C rest off in fast_log off o' 2 t.
Proof.
  intros HU. induction fuel as [|fuel IH]; intros rest off; cbn [fast_chunk]; [apply fast_single_log; lia|].
  destruct (U <=? length rest)%nat.
  - destruct (first_out C rest U) as [i|]; [apply fast_log_one; lia|].
    specialize (IH (skipn U rest) (off + N.of_nat U)).
    destruct (fast_chunk fuel U C (skipn U rest) (off + N.of_nat U)) as [[r1 o1] t1].
    apply (fast_log_cons off (off + N.of_nat U) _ o1 2 2 t1 IH); lia.
  - pose proof (fast_single_log C 1 (N.le_refl 1) rest off) as H.
    destruct (fast_single C rest off) as [[r1 o1] t1].
    apply (fast_log_cons off off _ o1 1 2 t1 H); lia.
Qed.

Lemma fast_loop_log U s st rest off : (1 <= U)%nat ->
  let '(_, off1, tr1) := fast_loop U s st rest off in fast_log off off1 2 tr1.
Proof.
  intros HU. unfold fast_loop. destruct (self_class s (g_edges st)) as [C|];
    [apply fast_chunk_log; exact HU|apply fast_log_nil, N.le_refl].
Qed.

(* the reads of a walk from off: none at all, or in order from off up to hi, an offset that IS read, and at most three
   per offset from off to hi: the slack 2 of the fast loop and the read of the fork.  (The C20 theorems bind hi only
   as an upper bound; here it is pinned, which is what makes the count linear.) *)
Definition linear_from (off : N) (tr : rlog) : Prop :=
  tr = [] \/
  exists hi, off <= hi /\ In hi (offs tr) /\ sorted_in off (offs tr) hi /\ N.of_nat (length tr) <= 3 * (hi + 1 - off).

Lemma linear_nil off : linear_from off [].
Proof. left. reflexivity. Qed.

Lemma linear_visit off off1 tr1 tr' :
  fast_log off off1 2 tr1 -> linear_from (off1 + 1) tr' -> linear_from off (tr1 ++ (off1, 1) :: tr').
Proof.
  intros (Hle & S1 & L1) H. right.
  assert (Hhi : exists hi, off1 <= hi /\ In hi (off1 :: offs tr') /\ sorted_in off1 (off1 :: offs tr') hi /\
                           N.of_nat (length tr') <= 3 * (hi - off1)).
  { destruct H as [->|(hi & Hh & Hin & S' & L')].
    - exists off1. split; [apply N.le_refl|]. split; [left; reflexivity|]. split; [|cbn [length]; lia].
      apply (sorted_in_cons off1 off1); [apply N.le_refl..|apply sorted_in_nil].
    - exists hi. split; [lia|]. split; [right; exact Hin|]. split; [|lia].
      apply (sorted_in_cons off1 (off1 + 1)); [apply N.le_add_r|exact Hh|exact S']. }
  destruct Hhi as (hi & Hh & Hin & S' & L'). exists hi. unfold offs. rewrite map_app, app_length. cbn [map fst length].
  split; [lia|]. split; [apply in_or_app; right; exact Hin|]. split; [|lia].
  exact (sorted_in_app _ _ off off1 hi Hle Hh S1 S').
Qed.

(* with hi only an upper bound, as the C20 theorems state it *)
Lemma linear_bound off tr : linear_from off tr ->
  exists hi, off <= hi /\ sorted_in off (offs tr) hi /\ N.of_nat (length tr) <= 3 * (hi + 1 - off).
Proof.
  intros [->|(hi & Hh & _ & H)]; [|exists hi; exact (conj Hh H)].
  exists off. split; [apply N.le_refl|]. split; [apply sorted_in_nil|cbn [length]; lia].
Qed.

Lemma snd_visit (k : stop * rlog) tr1 e : snd (let (r, tr) := k in (r, tr1 ++ e :: tr)) = tr1 ++ e :: snd k.
Proof. destruct k; reflexivity. Qed.

Theorem walk_opt_log U g p start : (1 <= U)%nat ->
  forall fuel hops rest s off c, linear_from off (snd (walk_opt U g p start fuel hops rest s off c)).
Proof.
  intros HU. induction fuel as [|fuel IH]; intros hops rest s off c; cbn [walk_opt]; [apply linear_nil|].
  destruct (gfind g s) as [st|]; [|apply linear_nil].
  pose proof (fast_loop_log U s st rest off HU) as Hf.
  destruct (fast_loop U s st rest off) as [[rest1 off1] tr1].
  destruct rest1 as [|b rest'].
  - rewrite snd_visit. apply (linear_visit off off1 tr1 _ Hf). unfold eoi_block.
    destruct (partial_mode_test st && p); [apply linear_nil|].
    destruct ((s =? g_root g)%positive && (off1 =? start)); [apply linear_nil|].
    destruct (g_eoi st) as [t|]; [|apply linear_nil].
    destruct hops as [|h]; [apply linear_nil|apply IH].
  - destruct (fork_lookup s st b) as [t|].
    + rewrite snd_visit. apply (linear_visit off off1 tr1 _ Hf), IH.
    + apply (linear_visit off off1 tr1 [] Hf), linear_nil.
Qed.
