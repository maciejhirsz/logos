(* Engine/LexProofs.v — the lexing loop: one call of next() as a run of turns (Section Turn); attempts the loop
   cannot tell apart give the same stream (Section Equiv); under the certificate (Section Loop) the graph executor's
   stream is that of the DFA-level specification, and lexing terminates, makes progress and tiles the input (C03). *)
From Coq Require Import List Arith NArith Lia.
From LogosV Require Import Engine.Model Engine.Cert Engine.CertProofs Engine.SpecProofs Engine.StopProofs.
Import ListNotations.
Local Open Scope N_scope.

Lemma skipn_length_N (w : list byte) (start : N) :
  start <= N.of_nat (length w) ->
  N.of_nat (length (skipn (N.to_nat start) w)) = N.of_nat (length w) - start.
Proof. intros _. rewrite skipn_length, Nat2N.inj_sub, N2Nat.id. reflexivity. Qed.

Lemma nmax_max a b : nmax a b = N.max a b.
Proof. unfold nmax. destruct (N.ltb_spec a b); lia. Qed.

(* nmax off (start + 1) is the raw end of an error item *)
Lemma nmax_bounds off start b : off <= b -> start < b -> start < nmax off (start + 1) <= b.
Proof. intros Ho Hs. rewrite nmax_max. lia. Qed.

Section Turn.
  Variable attempt : bool -> N -> list byte -> stop.
  Variable act : leaf -> N -> N -> action * N.
  Variable fb : N -> N.
  Variable w : list byte.
  Variable p : bool.

  Definition is_emit (a : action) : bool := match a with AEmit => true | _ => false end.

  (* what one attempt and its callback decide: skip the match and go on at e, or end this call *)
  Definition turn (start : N) : leaf * N + outcome :=
    match attempt p start (skipn (N.to_nat start) w) with
    | Acted None off => let e := fb (nmax off (start + 1)) in inr (Yield (Item false None start e) e)
    | Acted (Some (l, e)) _ =>
        match act l start e with
        | (ASkip, bump) => inl (l, e + bump)
        | (a, bump) => inr (Yield (Item (is_emit a) (Some l) start (e + bump)) (e + bump))
        end
    | RetNone _ => inr (Finished start start)
    | Stuck | Diverged => inr Broken
    end.

  Lemma next_from_S f start : next_from attempt act fb w p (S f) start =
    match turn start with
    | inl (l, e) => let (sk, o) := next_from attempt act fb w p f e in (RSkip l start e :: sk, o)
    | inr o => ([], o)
    end.
  Proof.
    unfold turn. cbn [next_from].
    destruct (attempt p start (skipn (N.to_nat start) w)) as [[[l e]|] off|r| |]; [|reflexivity..].
    destruct (act l start e) as [[] bump]; reflexivity.
  Qed.

  (* where a turn that skips or yields goes on: past a match and its bump, or past an error *)
  Definition Advance (start e' : N) : Prop :=
    exists c off, attempt p start (skipn (N.to_nat start) w) = Acted c off /\
      e' = match c with Some (l, e) => e + snd (act l start e) | None => fb (nmax off (start + 1)) end.

  Inductive TurnSpec (start : N) : leaf * N + outcome -> Prop :=
  | ts_skip l e' : Advance start e' -> TurnSpec start (inl (l, e'))
  | ts_yield ok lo e' : Advance start e' -> TurnSpec start (inr (Yield (Item ok lo start e') e'))
  | ts_none r : attempt p start (skipn (N.to_nat start) w) = RetNone r -> TurnSpec start (inr (Finished start start))
  | ts_broken : attempt p start (skipn (N.to_nat start) w) = Stuck \/
                attempt p start (skipn (N.to_nat start) w) = Diverged -> TurnSpec start (inr Broken).

  Lemma turn_spec start : TurnSpec start (turn start).
  Proof.
    unfold turn. destruct (attempt p start (skipn (N.to_nat start) w)) as [[[l e]|] off|r| |] eqn:E.
    - destruct (act l start e) as [a bump] eqn:Ea.
      assert (Ha : Advance start (e + bump)) by (exists (Some (l, e)), off; rewrite Ea; auto).
      destruct a; constructor; exact Ha.
    - constructor. exists None, off. auto.
    - exact (ts_none start r E).
    - apply ts_broken. left. exact E.
    - apply ts_broken. right. exact E.
  Qed.

  (* a run of skipped matches from start to s *)
  Inductive Skips : N -> list region -> N -> Prop :=
  | skips_nil s : Skips s [] s
  | skips_cons start l e sk s :
      turn start = inl (l, e) -> Skips e sk s -> Skips start (RSkip l start e :: sk) s.

  Lemma next_from_skips start sk s : Skips start sk s -> forall f,
    next_from attempt act fb w p (length sk + f) start =
    (sk ++ fst (next_from attempt act fb w p f s), snd (next_from attempt act fb w p f s)).
  Proof.
    induction 1 as [s|start l e sk s Ht _ IH]; intros f; cbn [length Nat.add app].
    - destruct (next_from attempt act fb w p f s); reflexivity.
    - rewrite next_from_S, Ht, IH. reflexivity.
  Qed.

  Lemma next_from_inv : forall f start sk o,
    next_from attempt act fb w p f start = (sk, o) -> o <> Broken ->
    exists s, Skips start sk s /\ turn s = inr o /\ (length sk < f)%nat.
  Proof.
    induction f as [|f IH]; intros start sk o H Hnb.
    - injection H as _ <-. congruence.
    - rewrite next_from_S in H. destruct (turn start) as [[l e]|o'] eqn:Et.
      + destruct (next_from attempt act fb w p f e) as [sk0 o0] eqn:En. injection H as <- <-.
        destruct (IH _ _ _ En Hnb) as [s [Hs [Ht Hl]]].
        exists s. split; [exact (skips_cons _ _ _ _ _ Et Hs)|]. split; [exact Ht|cbn [length]; lia].
      + injection H as <- <-. exists start. split; [constructor|]. split; [exact Et|exact (Nat.lt_0_succ f)].
  Qed.

  Lemma next_from_run start sk s o f : Skips start sk s -> turn s = inr o -> (length sk < f)%nat ->
    next_from attempt act fb w p f start = (sk, o).
  Proof.
    intros Hs Ht Hl. replace f with (length sk + S (f - S (length sk)))%nat by lia.
    rewrite (next_from_skips _ _ _ Hs), next_from_S, Ht. rewrite app_nil_r. reflexivity.
  Qed.

  Lemma next_from_mono f f' start sk o : (f <= f')%nat ->
    next_from attempt act fb w p f start = (sk, o) -> o <> Broken ->
    next_from attempt act fb w p f' start = (sk, o).
  Proof.
    intros Hle H Hnb. destruct (next_from_inv f start sk o H Hnb) as [s [Hs [Ht Hl]]].
    exact (next_from_run start sk s o f' Hs Ht (Nat.lt_le_trans _ _ _ Hl Hle)).
  Qed.

  Lemma lex_from_mono : forall f f' start rs o, (f <= f')%nat ->
    lex_from attempt act fb w p f start = (rs, o) -> o <> Broken ->
    lex_from attempt act fb w p f' start = (rs, o).
  Proof.
    induction f as [|f IH]; intros f' start rs o Hle H Hnb.
    - injection H as _ <-. congruence.
    - destruct f' as [|f']; [lia|]. cbn [lex_from] in *.
      destruct (next_from attempt act fb w p (S (length w)) start) as [sk [it e|s e|]]; [|exact H..].
      destruct (lex_from attempt act fb w p f e) as [rs1 fin] eqn:El. injection H as <- <-.
      rewrite (IH f' e rs1 fin); [reflexivity|lia|exact El|exact Hnb].
  Qed.

  Lemma lex_from_skips start sk s : Skips start sk s -> forall F rs fin,
    lex_from attempt act fb w p (S F) start = (rs, fin) -> fin <> Broken ->
    exists rs', rs = sk ++ rs' /\ lex_from attempt act fb w p (S F) s = (rs', fin).
  Proof.
    induction 1 as [s|start l e sk s Ht _ IH]; intros F rs fin H Hnb; [exists rs; split; [reflexivity|exact H]|].
    (* one skip: the rest of this call of next() is a call from e, which one more unit of fuel does not change *)
    assert (E : exists rs1, rs = RSkip l start e :: rs1 /\ lex_from attempt act fb w p (S F) e = (rs1, fin)).
    { cbn [lex_from] in *. rewrite next_from_S, Ht in H.
      destruct (next_from attempt act fb w p (length w) e) as [sk1 o1] eqn:En.
      assert (Ho : o1 <> Broken) by (intros ->; injection H as _ <-; congruence).
      rewrite (next_from_mono _ _ _ _ _ (Nat.le_succ_diag_r (length w)) En Ho).
      destruct o1 as [it e'|a b|]; [|injection H as <- <-; eauto|congruence].
      destruct (lex_from attempt act fb w p F e') as [rs2 fin2]. injection H as <- <-. eauto. }
    destruct E as [rs1 [-> E]]. destruct (IH _ _ _ E Hnb) as [rs' [-> H']]. exists rs'. split; [reflexivity|exact H'].
  Qed.

  (* a call that ends in None: a run of skips up to s, and the empty span s..s *)
  Lemma next_from_finished f start sk s e :
    next_from attempt act fb w p f start = (sk, Finished s e) -> Skips start sk s /\ s = e /\ (length sk < f)%nat.
  Proof.
    intros H. destruct (next_from_inv f start sk _ H) as [s' [Hs [Ht Hl]]]; [discriminate|].
    destruct (turn_spec s') as [l e' _|ok lo e' _|r _|_]; [discriminate Ht..| |discriminate Ht].
    injection Ht as <- <-. exact (conj Hs (conj eq_refl Hl)).
  Qed.

  Lemma lex_from_outcome : forall f start rs o,
    lex_from attempt act fb w p f start = (rs, o) -> o = Broken \/ exists s, o = Finished s s.
  Proof.
    induction f as [|f IH]; intros start rs o H; [injection H as _ <-; auto|]. cbn [lex_from] in H.
    destruct (next_from attempt act fb w p (S (length w)) start) as [sk [it e1|a b|]] eqn:En.
    - destruct (lex_from attempt act fb w p f e1) as [rs1 fin] eqn:El. injection H as _ <-. exact (IH _ _ _ El).
    - injection H as _ <-. right. exists a. rewrite (proj1 (proj2 (next_from_finished _ _ _ _ _ En))). reflexivity.
    - injection H as _ <-. auto.
  Qed.
End Turn.

(* two attempt results that the lexing loop cannot tell apart: it looks at the stop offset only where
   nothing was recorded *)
Inductive att_equiv : stop -> stop -> Prop :=
| ae_match x o1 o2 : att_equiv (Acted (Some x) o1) (Acted (Some x) o2)
| ae_none o : att_equiv (Acted None o) (Acted None o)
| ae_ret r1 r2 : att_equiv (RetNone r1) (RetNone r2)
| ae_stuck : att_equiv Stuck Stuck
| ae_diverged : att_equiv Diverged Diverged.

Lemma att_equiv_refl x : att_equiv x x.
Proof. destruct x as [[x|] o|r| |]; constructor. Qed.

Section Equiv.
  Variables (A B : bool -> N -> list byte -> stop) (act : leaf -> N -> N -> action * N) (fb : N -> N).
  Variables (w : list byte) (p : bool).
  Hypothesis HAB : forall start, att_equiv (A p start (skipn (N.to_nat start) w)) (B p start (skipn (N.to_nat start) w)).

  Lemma turn_equiv start : turn A act fb w p start = turn B act fb w p start.
  Proof. unfold turn. destruct (HAB start) as [[l e] o1 o2|o|r1 r2| |]; reflexivity. Qed.

  Lemma next_from_equiv : forall fuel start, next_from A act fb w p fuel start = next_from B act fb w p fuel start.
  Proof.
    induction fuel as [|fuel IH]; intros start; [reflexivity|].
    rewrite !next_from_S, turn_equiv. destruct (turn B act fb w p start) as [[l e]|o]; [rewrite IH|]; reflexivity.
  Qed.

  Lemma lex_from_equiv : forall fuel start, lex_from A act fb w p fuel start = lex_from B act fb w p fuel start.
  Proof.
    induction fuel as [|fuel IH]; intros start; [reflexivity|].
    cbn [lex_from]. rewrite next_from_equiv.
    destruct (next_from B act fb w p (S (length w)) start) as [sk [it e|s e|]]; [|reflexivity..].
    rewrite IH. reflexivity.
  Qed.
End Equiv.

Definition region_span (r : region) : N * N :=
  match r with RItem (Item _ _ s e) => (s, e) | RSkip _ s e => (s, e) end.

(* the regions are non-empty, start at `from`, abut, and end at `to` *)
Fixpoint tiles (rs : list region) (from to : N) : Prop :=
  match rs with
  | [] => from = to
  | r :: rs' => fst (region_span r) = from /\ from < snd (region_span r) /\ tiles rs' (snd (region_span r)) to
  end.

Lemma tiles_app rs1 rs2 a b c : tiles rs1 a b -> tiles rs2 b c -> tiles (rs1 ++ rs2) a c.
Proof.
  revert a. induction rs1 as [|r rs1 IH]; intros a H1 H2; cbn [app tiles] in *.
  - subst. exact H2.
  - destruct H1 as [E [L T]]. split; [exact E|]. split; [exact L|]. exact (IH _ T H2).
Qed.

Lemma tiles_le rs : forall a b, tiles rs a b -> a <= b.
Proof.
  induction rs as [|r rs IH]; intros a b H; cbn [tiles] in H; [lia|].
  destruct H as [_ [L T]]. specialize (IH _ _ T). lia.
Qed.

Section Loop.
  Variables (d : dfa) (g : graph) (V : pairing) (R : rankmap) (D : pset).
  Hypothesis Hok : dfa_ok d = true.
  Hypothesis Hsim : sim_ok d g V D = true.
  Hypothesis Hex : exact_ok d g V R D = true.

  Lemma attempt_ref_spec_equiv rest start : bytes_ok rest ->
    att_equiv (attempt_ref g false start rest) (attempt_spec d (lv_of R) false start rest).
  Proof.
    intros Hwr. destruct rest as [|b rest'].
    - rewrite (attempt_nil d g V D Hsim start). constructor.
    - destruct (attempt_exact d g V R D Hok Hsim Hex start (b :: rest') Hwr ltac:(discriminate)) as [off [-> Hoff]].
      cbn [attempt_spec]. destruct (scan d (d_start d) (b :: rest') start None) as [x|]; [constructor|].
      rewrite (Hoff eq_refl). constructor.
  Qed.

  Variable act : leaf -> N -> N -> action * N.
  Variable fb : N -> N.
  Variable w : list byte.
  Hypothesis Hw : bytes_ok w.
  Let len := N.of_nat (length w).
  Hypothesis act_ok : forall l s e, s < e -> e <= len -> e + snd (act l s e) <= len.
  Hypothesis fb_ok : forall i, i <= len -> i <= fb i /\ fb i <= len.

  Lemma attempt_past_end start : len <= start -> attempt_ref g false start (skipn (N.to_nat start) w) = RetNone false.
  Proof. intros H. rewrite skipn_all2 by (unfold len in H; lia). exact (attempt_nil d g V D Hsim _). Qed.

  Lemma acted_shape start c off : attempt_ref g false start (skipn (N.to_nat start) w) = Acted c off ->
    start < len /\ MaximalMunch d (skipn (N.to_nat start) w) start c /\
    match c with Some (_, e) => start < e <= len | None => off <= len end.
  Proof.
    intros E. assert (Hlt : start < len).
    { apply N.lt_nge. intros Hge. rewrite (attempt_past_end start Hge) in E. discriminate. }
    split; [exact Hlt|]. pose proof (bytes_ok_skipn (N.to_nat start) w Hw) as Hwr.
    destruct (attempt_exact d g V R D Hok Hsim Hex start _ Hwr (skipn_nonempty w start Hlt)) as [off' [Ha Hoff]].
    rewrite E in Ha. injection Ha as -> <-.
    pose proof (scan_maximal_munch d _ start Hok Hwr) as Hm. split; [exact Hm|].
    destruct (scan d _ _ start None) as [[l e]|].
    - destruct Hm as [j [-> [Hj _]]]. rewrite skipn_length in Hj. lia.
    - pose proof (viable_end_le d (lv_of R) (skipn (N.to_nat start) w) (d_start d) start) as Hle.
      rewrite skipn_length in Hle. rewrite (Hoff eq_refl). lia.
  Qed.

  Lemma advance_bounds start e : Advance (attempt_ref g) act fb w false start e -> start < e <= len.
  Proof.
    intros [c [off [E ->]]]. destruct (acted_shape start c off E) as [Hlt [_ Hc]]. destruct c as [[l e]|].
    - split; [apply N.lt_lt_add_r; exact (proj1 Hc)|exact (act_ok l start e (proj1 Hc) (proj2 Hc))].
    - destruct (nmax_bounds off start len Hc Hlt) as [Hs Hm]. destruct (fb_ok _ Hm) as [Hf Hl].
      exact (conj (N.lt_le_trans _ _ _ Hs Hf) Hl).
  Qed.

  Lemma next_progress : forall fuel start,
    start <= len -> len < start + N.of_nat fuel ->
    exists sk s o, next_from (attempt_ref g) act fb w false fuel start = (sk, o) /\ tiles sk start s /\
      ((exists ok lo e, o = Yield (Item ok lo s e) e /\ s < e <= len) \/ (s = len /\ o = Finished len len)).
  Proof.
    induction fuel as [|fuel IH]; intros start Hle Hf; [lia|].
    rewrite next_from_S. apply N.lt_eq_cases in Hle as [Hlt| ->].
    - destruct (attempt_exact d g V R D Hok Hsim Hex start _ (bytes_ok_skipn _ w Hw) (skipn_nonempty w start Hlt)) as [off [E _]].
      destruct (turn_spec (attempt_ref g) act fb w false start) as [l e Ha|ok lo e Ha|r E'|[E'|E']]; [| |congruence..].
      + destruct (advance_bounds start e Ha) as [Hse Hel].
        destruct (IH e Hel) as [sk [s [o [-> [Ht Ho]]]]]; [lia|].
        exists (RSkip l start e :: sk), s, o. split; [reflexivity|]. split; [|exact Ho].
        cbn [tiles region_span fst snd]. split; [reflexivity|]. split; [exact Hse|exact Ht].
      + exists [], start, (Yield (Item ok lo start e) e). split; [reflexivity|]. split; [reflexivity|].
        left. exists ok, lo, e. split; [reflexivity|exact (advance_bounds start e Ha)].
    - unfold turn. rewrite (attempt_past_end len (N.le_refl _)).
      exists [], len, (Finished len len). split; [reflexivity|]. split; [reflexivity|]. right. split; reflexivity.
  Qed.

  Lemma lex_progress : forall fuel start,
    start <= len -> len < start + N.of_nat fuel ->
    exists rs, lex_from (attempt_ref g) act fb w false fuel start = (rs, Finished len len) /\ tiles rs start len.
  Proof.
    induction fuel as [|fuel IH]; intros start Hle Hf; [lia|].
    cbn [lex_from].
    destruct (next_progress (S (length w)) start Hle) as [sk [s [o [-> [Ht Ho]]]]]; [unfold len; lia|].
    destruct Ho as [[ok [lo [e [-> [Hse Hel]]]]]|[-> ->]].
    - pose proof (tiles_le _ _ _ Ht) as Hs. destruct (IH e Hel) as [rs [-> Hts]]; [lia|].
      exists (sk ++ RItem (Item ok lo s e) :: rs). split; [reflexivity|].
      apply (tiles_app _ _ _ s _ Ht). cbn [tiles region_span fst snd]. split; [reflexivity|]. split; [exact Hse|exact Hts].
    - exists sk. split; [reflexivity|exact Ht].
  Qed.

  Theorem lex_tiles :
    exists rs, lex_all (attempt_ref g) act fb w false = (rs, Finished len len) /\ tiles rs 0 len.
  Proof. unfold lex_all. apply lex_progress; unfold len; lia. Qed.

  Lemma lex_not_broken fuel start : (N.to_nat (len - start) < fuel)%nat ->
    snd (lex_from (attempt_ref g) act fb w false fuel start) <> Broken.
  Proof.
    intros Hf. destruct (N.le_gt_cases start len) as [Hle|Hgt].
    - destruct (lex_progress fuel start Hle) as [rs [-> _]]; [lia|discriminate].
    - (* past the end: None at once *)
      destruct fuel as [|fuel]; [lia|]. cbn [lex_from next_from]. rewrite attempt_past_end by lia. discriminate.
  Qed.
End Loop.
