(* Engine/Utf8Stream.v — stream-level agreement of str mode and byte mode (C12).
   The two modes run the same graph and differ only in find_boundary.  With every default error item
   cut into one-byte pieces, the whole streams (skipped matches, Ok items, callback errors, errors)
   of the two lexers are equal: the same Ok tokens with the same spans and the same bytes covered by
   errors. *)
From Coq Require Import List Arith NArith Lia.
From LogosV Require Import Base.Utf8 Engine.Model Engine.Cert Engine.CertProofs Engine.LexProofs Engine.Run
  Engine.Utf8Proofs Engine.Utf8Lex.
Import ListNotations.
Local Open Scope N_scope.

(* n one-byte default errors from offset s on *)
Fixpoint units (s : N) (n : nat) : list region :=
  match n with O => [] | S k => RItem (Item false None s (s + 1)) :: units (s + 1) k end.
(* a default error item s..e as its bytes; everything else unchanged *)
Definition split_err (r : region) : list region :=
  match r with RItem (Item false None s e) => units s (N.to_nat (e - s)) | _ => [r] end.
Definition split_errs (rs : list region) : list region := flat_map split_err rs.

Lemma units_app s a b : units s (a + b) = units s a ++ units (s + N.of_nat a) b.
Proof.
  revert s. induction a as [|a IH]; intros s; cbn [units Nat.add app].
  - rewrite N.add_0_r. reflexivity.
  - rewrite IH. replace (s + 1 + N.of_nat a) with (s + N.of_nat (S a)) by lia. reflexivity.
Qed.

Lemma units_split s m e : s <= m <= e ->
  units s (N.to_nat (e - s)) = units s (N.to_nat (m - s)) ++ units m (N.to_nat (e - m)).
Proof.
  intros [H1 H2].
  assert (E : e - s = m - s + (e - m)) by (rewrite N.add_comm, N.add_sub_assoc, N.sub_add by assumption; reflexivity).
  rewrite E, N2Nat.inj_add, units_app, N2Nat.id, (N.add_comm s), (N.sub_add s m H1). reflexivity.
Qed.

Lemma split_errs_app a b : split_errs (a ++ b) = split_errs a ++ split_errs b.
Proof. unfold split_errs. apply flat_map_app. Qed.

Lemma split_err_unit i : split_err (RItem (Item false None i (i + 1))) = units i 1.
Proof. cbn [split_err]. rewrite N.add_comm, N.add_sub. reflexivity. Qed.

Lemma split_errs_units i n : split_errs (units i n) = units i n.
Proof.
  revert i. induction n as [|n IH]; intros i; [reflexivity|].
  cbn [units]. unfold split_errs. cbn [flat_map]. rewrite split_err_unit, IH. reflexivity.
Qed.

Lemma fb_str_gap w m j : m <= j -> j < fb_str w m ->
  exists b, nth_error w (N.to_nat j) = Some b /\ is_cont b = true.
Proof. intros Hm Hj. exact (proj1 (proj2 (fb_str_spec w m)) j (conj Hm Hj)). Qed.

(* the stream lexed from s on, after the cut *)
Definition split_lex attempt act fb (w : list byte) p f s : list region :=
  split_errs (fst (lex_from attempt act fb w p f s)).

Lemma split_lex_S attempt act fb w p f s sk o :
  next_from attempt act fb w p (S (length w)) s = (sk, o) ->
  split_lex attempt act fb w p (S f) s =
  split_errs sk ++ match o with Yield it e => split_err (RItem it) ++ split_lex attempt act fb w p f e | _ => [] end.
Proof.
  intros E. unfold split_lex. cbn [lex_from]. rewrite E.
  destruct o as [it e|a b|]; cbn [fst]; [|rewrite app_nil_r; reflexivity..].
  destruct (lex_from attempt act fb w p f e) as [rs fin]. apply split_errs_app.
Qed.

Section Agree.
  Variables (d : dfa) (g : graph) (V : pairing) (R : rankmap) (D : pset) (P : upairs).
  Hypothesis Hok : dfa_ok d = true.
  Hypothesis Hsim : sim_ok d g V D = true.
  Hypothesis Hex : exact_ok d g V R D = true.
  Hypothesis HU : utf8_ok d P = true.
  Hypothesis HS : utf8_strict_ok d P D = true.
  Variable act : leaf -> N -> N -> action * N.
  Variable w : list byte.
  Hypothesis Hw : bytes_ok w.
  Local Notation len := (N.of_nat (length w)).
  Hypothesis act_ok : forall l s e, s < e -> e <= len -> e + snd (act l s e) <= len.
  Local Notation fbB := (fun i : N => i).

  (* byte mode inside a character: one-byte errors up to the next boundary *)
  Lemma bytes_gap m : forall n i f,
    m <= i -> i + N.of_nat n = fb_str w m -> (n <= f)%nat ->
    split_lex (attempt_ref g) act fbB w false f i
    = units i n ++ split_lex (attempt_ref g) act fbB w false (f - n) (fb_str w m).
  Proof.
    induction n as [|n IH]; intros i f Hi Hgap Hf.
    - replace i with (fb_str w m) by lia. rewrite Nat.sub_0_r. reflexivity.
    - destruct f as [|f]; [lia|].
      destruct (fb_str_gap w m i Hi) as [b [Hn Hc]]; [lia|].
      pose proof (proj1 (Forall_forall _ _) Hw b (nth_error_In _ _ Hn)) as Hb.
      (* Run.is_cont and Base.Utf8.is_cont8 are two definitions of the one test, convertible *)
      change (is_cont b) with (is_cont8 b) in Hc.
      pose proof (inside_char_error d g V R D P Hok Hsim Hex HU HS act w i b Hn Hb (ustep_U0_cont b Hc) (length w)) as He.
      rewrite (split_lex_S (attempt_ref g) act fbB w false f i _ _ He), split_err_unit, (IH (i + 1) f) by lia. reflexivity.
  Qed.

  Lemma agree_from : forall fS p fB, p <= len ->
    len < p + N.of_nat fS -> len < p + N.of_nat fB ->
    split_lex (attempt_ref g) act (fb_str w) w false fS p = split_lex (attempt_ref g) act fbB w false fB p.
  Proof.
    induction fS as [|fS IH]; intros p fB Hp HfS HfB; [lia|]. destruct fB as [|fB]; [lia|].
    destruct (next_progress d g V R D Hok Hsim Hex act fbB w Hw act_ok (fun i Hi => conj (N.le_refl i) Hi) (S (length w)) p Hp)
      as [sk [s [oB [HnB [Ht Hprog]]]]]; [lia|].
    destruct (next_fb_independent (attempt_ref g) act (fb_str w) fbB w false (S (length w)) p) as [Hsk Hrel].
    destruct (next_from (attempt_ref g) act (fb_str w) w false (S (length w)) p) as [skS oS] eqn:HnS.
    rewrite HnB in Hsk, Hrel. cbn [fst snd] in Hsk, Hrel. subst skS.
    rewrite (split_lex_S _ _ _ _ _ _ _ _ _ HnS), (split_lex_S _ _ _ _ _ _ _ _ _ HnB). f_equal.
    pose proof (tiles_le _ _ _ Ht) as Hps.
    destruct (out_rel_cases _ _ _ _ Hrel) as [->|[s' [m [-> ->]]]].
    - destruct Hprog as [[ok [lo [e [-> He]]]]|[_ ->]]; [|reflexivity]. f_equal. apply IH; [exact (proj2 He)|lia|lia].
    - (* a default error: str mode rounds its end m up to the next boundary, byte mode covers the gap byte by byte *)
      destruct Hprog as [[ok [lo [e [E He]]]]|[_ E]]; [|discriminate]. injection E as _ _ -> <- _.
      destruct (fb_str_ok w m (proj2 He)) as [G1 G2]. cbn [split_err].
      rewrite (units_split s m (fb_str w m) (conj (N.lt_le_incl _ _ (proj1 He)) G1)), <- app_assoc. f_equal.
      rewrite (bytes_gap m (N.to_nat (fb_str w m - m)) m fB) by lia. f_equal. apply IH; [exact G2|lia|lia].
  Qed.
End Agree.
