(* Engine/SpecProofs.v — what [win], [scan] and the certificates about the DFA alone ([dfa_ok], [reach_ok]) mean,
   in Prop form. *)
From Coq Require Import List NArith Bool FMapPositive Lia.
From LogosV Require Import Engine.Model Engine.Cert Engine.CertProofs.
Import ListNotations.
Local Open Scope N_scope.

(* l is the unique leaf of ms with the greatest priority *)
Definition StrictMax (pr : leaf -> N) (ms : list leaf) (l : leaf) : Prop :=
  In l ms /\ forall l', In l' ms -> l' <> l -> pr l' < pr l.
(* the greatest priority is shared by two different leaves *)
Definition SharedMax (pr : leaf -> N) (ms : list leaf) : Prop :=
  exists l1 l2, In l1 ms /\ In l2 ms /\ l1 <> l2 /\ pr l1 = pr l2 /\ forall l', In l' ms -> pr l' <= pr l1.

(* Invariant of the accumulator of win_of; S holds of the leaves seen so far.  [best] is their greatest
   priority, and acc tells whether one leaf or several carry it. *)
Definition acc_inv (pr : leaf -> N) (S : leaf -> Prop) (acc : winner) (best : N) : Prop :=
  match acc with
  | WNone => forall l, ~ S l
  | WOne l => S l /\ best = pr l /\ forall l', S l' -> pr l' <= best /\ (pr l' = best -> l' = l)
  | WTie => (exists l1 l2, S l1 /\ S l2 /\ l1 <> l2 /\ pr l1 = best /\ pr l2 = best) /\
            forall l', S l' -> pr l' <= best
  end.

Lemma acc_inv_ext pr (S S' : leaf -> Prop) acc best :
  (forall l, S l <-> S' l) -> acc_inv pr S acc best -> acc_inv pr S' acc best.
Proof. intros E H. destruct acc; cbn [acc_inv]; setoid_rewrite <- E; exact H. Qed.

Lemma acc_inv_step pr S acc best l : ~ S l -> acc_inv pr S acc best ->
  exists acc' best', (forall ms, win_of pr (l :: ms) acc best = win_of pr ms acc' best') /\
                     acc_inv pr (fun x => S x \/ l = x) acc' best'.
Proof.
  intros Hl H.
  assert (Top : (forall l', S l' -> pr l' < pr l) -> acc_inv pr (fun x => S x \/ l = x) (WOne l) (pr l)).
  { intros Hlt. split; [right; reflexivity|]. split; [reflexivity|].
    intros l' [Hl'|<-]; [specialize (Hlt l' Hl'); lia|split; [lia|reflexivity]]. }
  destruct acc as [|l0|]; cbn [win_of acc_inv] in *.
  - exists (WOne l), (pr l). split; [reflexivity|]. apply Top. intros l' Hl'. destruct (H l' Hl').
  - destruct H as [H0 [-> Hmax]].
    destruct (N.ltb_spec (pr l0) (pr l)) as [Hlt|Hge]; [|destruct (N.eqb_spec (pr l) (pr l0)) as [Heq|Hne]].
    + exists (WOne l), (pr l). split; [reflexivity|]. apply Top. intros l' Hl'. destruct (Hmax l' Hl'). lia.
    + exists WTie, (pr l0). split; [reflexivity|]. split.
      * exists l0, l. split; [left; exact H0|]. split; [right; reflexivity|]. split; [intros ->; exact (Hl H0)|].
        split; [reflexivity|exact Heq].
      * intros l' [Hl'|<-]; [exact (proj1 (Hmax l' Hl'))|lia].
    + exists (WOne l0), (pr l0). split; [reflexivity|]. split; [left; exact H0|]. split; [reflexivity|].
      intros l' [Hl'|<-]; [exact (Hmax l' Hl')|lia].
  - destruct H as [[l1 [l2 [H1 [H2 Hne]]]] Hmax].
    destruct (N.ltb_spec best (pr l)) as [Hlt|Hge].
    + exists (WOne l), (pr l). split; [reflexivity|]. apply Top. intros l' Hl'. specialize (Hmax l' Hl'). lia.
    + exists WTie, best. split; [destruct (pr l =? best); reflexivity|]. split.
      * exists l1, l2. split; [left; exact H1|]. split; [left; exact H2|exact Hne].
      * intros l' [Hl'|<-]; [exact (Hmax l' Hl')|exact Hge].
Qed.

Lemma win_of_inv pr : forall ms S acc best,
  NoDup ms -> (forall l, In l ms -> ~ S l) -> acc_inv pr S acc best ->
  exists best', acc_inv pr (fun l => S l \/ In l ms) (win_of pr ms acc best) best'.
Proof.
  induction ms as [|l ms IH]; intros S acc best Hnd Hdis H.
  - exists best. apply (acc_inv_ext pr S); [|exact H]. intros l. split; [intros HS; left; exact HS|intros [HS|[]]; exact HS].
  - apply NoDup_cons_iff in Hnd as [Hl Hnd'].
    destruct (acc_inv_step pr S acc best l (Hdis l (or_introl eq_refl)) H) as [acc' [best' [E H']]].
    rewrite E. destruct (IH (fun x => S x \/ l = x) acc' best' Hnd') as [b Hb]; [|exact H'|].
    + intros x Hx [HS|<-]; [exact (Hdis x (or_intror Hx) HS)|exact (Hl Hx)].
    + exists b. apply (acc_inv_ext pr _ _ _ _ (fun x => or_assoc (S x) (l = x) (In x ms))). exact Hb.
Qed.

Lemma win_of_spec pr ms : NoDup ms ->
  match win_of pr ms WNone 0 with
  | WNone => ms = []
  | WOne l => StrictMax pr ms l
  | WTie => SharedMax pr ms
  end.
Proof.
  intros Hnd.
  destruct (win_of_inv pr ms (fun _ => False) WNone 0 Hnd (fun _ _ F => F) (fun _ F => F)) as [b H].
  destruct (win_of pr ms WNone 0) as [|l|]; cbn [acc_inv] in H.
  - destruct ms as [|x ms']; [reflexivity|]. destruct (H x). right. left. reflexivity.
  - destruct H as [[[]|Hin] [-> Hmax]]. split; [exact Hin|].
    intros l' Hin' Hne. destruct (Hmax l' (or_intror Hin')) as [Hle Heq].
    assert (pr l' <> pr l) by (intros E; exact (Hne (Heq E))). lia.
  - destruct H as [[l1 [l2 [[[]|H1] [[[]|H2] [Hne [E1 E2]]]]]] Hmax].
    exists l1, l2. split; [exact H1|]. split; [exact H2|]. split; [exact Hne|]. split; [exact (eq_trans E1 (eq_sym E2))|].
    intros l' Hl'. rewrite E1. exact (Hmax l' (or_intror Hl')).
Qed.

Lemma nodupb_iff l : nodupb l = true <-> NoDup l.
Proof.
  induction l as [|x l IH]; cbn [nodupb]; [split; [constructor|reflexivity]|].
  rewrite andb_true_iff, negb_true_iff, NoDup_cons_iff, <- not_true_iff_false, (existsb_eqb N.eqb N.eqb_eq), IH. reflexivity.
Qed.

Lemma dfa_ok_spec d : dfa_ok d = true ->
  (forall q, NoDup (dmatch d q)) /\
  PositiveMap.find (d_dead d) (d_states d) = None /\ dmatch d (d_start d) = [] /\
  (forall u, unit_ok u -> dmatch d (dstep d (d_start d) u) = []) /\
  (forall q, win d q <> WTie).
Proof.
  unfold dfa_ok. intros H. apply andb_prop in H as [H H4]. apply andb_prop in H as [H H3].
  apply andb_prop in H as [H H2]. apply andb_prop in H as [H0 H1].
  split; [|split; [exact (is_none_true _ H1)|split; [exact (proj1 (nomatch_true _ _) H2)|split]]].
  - intros q. unfold dmatch. destruct (PositiveMap.find q (d_states d)) as [st|] eqn:E; [|constructor].
    exact (proj1 (nodupb_iff _) (forallb_find _ _ _ _ H0 E)).
  - intros u Hu. apply nomatch_true. exact (proj1 (forallb_units _) H3 u Hu).
  - intros q Hq. destruct (PositiveMap.find q (d_states d)) as [st|] eqn:E.
    + pose proof (forallb_find _ _ _ _ H4 E) as H. cbn [fst] in H. rewrite Hq in H. discriminate.
    + unfold win in Hq. rewrite (absent_nomatch d q E) in Hq. discriminate.
Qed.

Lemma dfa_ok_nodup d : dfa_ok d = true -> forall q, NoDup (dmatch d q).
Proof. intros H. exact (proj1 (dfa_ok_spec d H)). Qed.
Lemma dfa_dead_absent d : dfa_ok d = true -> PositiveMap.find (d_dead d) (d_states d) = None.
Proof. intros H. exact (proj1 (proj2 (dfa_ok_spec d H))). Qed.
Lemma dfa_start_nomatch d : dfa_ok d = true -> dmatch d (d_start d) = [].
Proof. intros H. exact (proj1 (proj2 (proj2 (dfa_ok_spec d H)))). Qed.
Lemma dfa_start_step_nomatch d : dfa_ok d = true -> forall u, unit_ok u -> dmatch d (dstep d (d_start d) u) = [].
Proof. intros H. exact (proj1 (proj2 (proj2 (proj2 (dfa_ok_spec d H))))). Qed.
Lemma dfa_no_tie d : dfa_ok d = true -> forall q, win d q <> WTie.
Proof. intros H. exact (proj2 (proj2 (proj2 (proj2 (dfa_ok_spec d H))))). Qed.

Lemma win_one_strict d q l : dfa_ok d = true -> win d q = WOne l -> StrictMax (prio d) (dmatch d q) l.
Proof.
  intros Hok H. pose proof (win_of_spec (prio d) _ (dfa_ok_nodup d Hok q)) as S.
  unfold win in H. rewrite H in S. exact S.
Qed.

Lemma no_winner_nomatch d q : dfa_ok d = true -> (forall l, win d q <> WOne l) -> dmatch d q = [].
Proof.
  intros Hok H. pose proof (win_of_spec (prio d) _ (dfa_ok_nodup d Hok q)) as S. fold (win d q) in S.
  destruct (win d q) as [|l|] eqn:E; [exact S|destruct (H l eq_refl)|].
  destruct (dfa_no_tie d Hok q E).
Qed.

Theorem tie_iff_shared d q : NoDup (dmatch d q) ->
  (win d q = WTie <-> SharedMax (prio d) (dmatch d q)).
Proof.
  intros Hnd. pose proof (win_of_spec (prio d) (dmatch d q) Hnd) as S. unfold win. split.
  - intros H. rewrite H in S. exact S.
  - intros [l1 [l2 [H1 [H2 [Hne [Heq Hmax]]]]]].
    destruct (win_of (prio d) (dmatch d q) WNone 0) as [|l|]; [|exfalso|reflexivity].
    + rewrite S in H1. destruct H1.
    + destruct S as [Hin Hstrict].
      destruct (N.eq_dec l1 l) as [->|Hn1].
      * specialize (Hstrict l2 H2 (not_eq_sym Hne)). lia.
      * specialize (Hstrict l1 H1 Hn1). specialize (Hmax l Hin). lia.
Qed.

Definition unit_at (rest : list byte) (j : nat) : unit_ :=
  match nth_error rest j with Some b => UB b | None => UEoi end.

(* the DFA state that shows the matches of the first j bytes of rest (read from state q) *)
Definition mstate (d : dfa) (q : qid) (rest : list byte) (j : nat) : qid :=
  dstep d (drun d q (firstn j rest)) (unit_at rest j).

Lemma mstate_0 d q rest : mstate d q rest 0 = dstep d q (unit_at rest 0).
Proof. reflexivity. Qed.
Lemma mstate_S d q b rest j : mstate d q (b :: rest) (S j) = mstate d (dstep d q (UB b)) rest j.
Proof. reflexivity. Qed.
Lemma mstate_at d bs u : forall q,
  mstate d q (bs ++ match u with UB b => [b] | UEoi => [] end) (length bs) = dstep d (drun d q bs) u.
Proof. induction bs as [|x bs IH]; intros q; [destruct u; reflexivity|exact (IH _)]. Qed.

Definition NoWinFrom (d : dfa) (q : qid) (rest : list byte) (j0 : nat) : Prop :=
  forall j l, (j0 <= j <= length rest)%nat -> win d (mstate d q rest j) <> WOne l.

Lemma NoWinFrom_cons d q b rest j0 :
  NoWinFrom d (dstep d q (UB b)) rest j0 -> NoWinFrom d q (b :: rest) (S j0).
Proof.
  intros H j l Hj. destruct j as [|j]; [lia|]. apply (H j l). cbn [length] in Hj. lia.
Qed.

(* scan returns the last length that has a winner, with that winner; [best] when there is none *)
Lemma scan_spec d : forall rest q k best,
  (scan d q rest k best = best /\ NoWinFrom d q rest 0) \/
  exists j l, (j <= length rest)%nat /\ scan d q rest k best = Some (l, k + N.of_nat j) /\
              win d (mstate d q rest j) = WOne l /\ NoWinFrom d q rest (S j).
Proof.
  (* where no length from 1 on has a winner, length 0 decides *)
  assert (H0 : forall rest q k best, NoWinFrom d q rest 1 ->
            (upd best k (win d (mstate d q rest 0)) = best /\ NoWinFrom d q rest 0) \/
            exists j l, (j <= length rest)%nat /\ upd best k (win d (mstate d q rest 0)) = Some (l, k + N.of_nat j) /\
                        win d (mstate d q rest j) = WOne l /\ NoWinFrom d q rest (S j)).
  { intros rest q k best H1. destruct (win d (mstate d q rest 0)) as [|l|] eqn:E; [left|right|left].
    1,3: split; [reflexivity|]; intros [|j] l' Hj; [rewrite E; discriminate|apply H1; lia].
    exists 0%nat, l. rewrite N.add_0_r. split; [lia|]. split; [reflexivity|]. split; [exact E|exact H1]. }
  induction rest as [|b rest IH]; intros q k best; cbn [scan].
  - apply (H0 []). intros j l Hj. cbn [length] in Hj. lia.
  - destruct (IH (dstep d q (UB b)) (k + 1) (upd best k (win d (dstep d q (UB b))))) as [[E H]|[j [l [Hj [E [Hw H]]]]]].
    + rewrite E. apply (H0 (b :: rest)). exact (NoWinFrom_cons d q b rest 0 H).
    + right. exists (S j), l. split; [cbn [length]; lia|]. split; [rewrite E; f_equal; f_equal; lia|].
      split; [exact Hw|exact (NoWinFrom_cons d q b rest (S j) H)].
Qed.

(* l is the unique highest-priority leaf among those matching the first j bytes of rest *)
Definition Wins (d : dfa) (rest : list byte) (j : nat) (l : leaf) : Prop :=
  StrictMax (prio d) (dmatch d (mstate d (d_start d) rest j)) l.
Definition NoMatch (d : dfa) (rest : list byte) (j : nat) : Prop :=
  dmatch d (mstate d (d_start d) rest j) = [].

(* What the context recorded by an attempt must be *)
Definition MaximalMunch (d : dfa) (rest : list byte) (start : N) (c : ctx) : Prop :=
  match c with
  | Some (l, e) => exists j, e = start + N.of_nat j /\ (1 <= j <= length rest)%nat /\ Wins d rest j l /\
                             forall j', (j < j')%nat -> (j' <= length rest)%nat -> NoMatch d rest j'
  | None => forall j, (j <= length rest)%nat -> NoMatch d rest j
  end.

Lemma unit_at_ok rest j : bytes_ok rest -> unit_ok (unit_at rest j).
Proof.
  intros H. unfold unit_at. destruct (nth_error _ _) as [b|] eqn:E; [|exact I].
  exact (proj1 (Forall_forall _ _) H b (nth_error_In _ _ E)).
Qed.

Theorem scan_maximal_munch d rest start :
  dfa_ok d = true -> bytes_ok rest ->
  MaximalMunch d rest start (scan d (d_start d) rest start None).
Proof.
  intros Hok Hw.
  assert (Hnm : forall j0, NoWinFrom d (d_start d) rest j0 ->
                forall j, (j0 <= j <= length rest)%nat -> NoMatch d rest j).
  { intros j0 H j Hj. apply (no_winner_nomatch d _ Hok). intros l. exact (H j l Hj). }
  destruct (scan_spec d rest (d_start d) start None) as [[-> H]|[j [l [Hj [-> [Hwin H]]]]]]; cbn [MaximalMunch].
  - intros j Hj. apply (Hnm 0%nat H). lia.
  - exists j. split; [reflexivity|]. split; [|split].
    + (* the empty prefix has no match *)
      destruct j as [|j]; [exfalso|lia].
      rewrite mstate_0, (win_nomatch d _ (dfa_start_step_nomatch d Hok _ (unit_at_ok rest 0 Hw))) in Hwin. discriminate.
    + exact (win_one_strict d _ l Hok Hwin).
    + intros j' Hlt Hle. apply (Hnm (S j) H). lia.
Qed.

Lemma scan_none_iff d rest start : dfa_ok d = true -> bytes_ok rest ->
  (scan d (d_start d) rest start None = None <-> forall j, (j <= length rest)%nat -> NoMatch d rest j).
Proof.
  intros Hok Hw. pose proof (scan_maximal_munch d rest start Hok Hw) as H.
  destruct (scan d (d_start d) rest start None) as [[l e]|]; cbn [MaximalMunch] in H.
  - split; [discriminate|]. intros Hno. destruct H as [j [_ [Hj [[Hin _] _]]]].
    specialize (Hno j (proj2 Hj)). unfold NoMatch in Hno. rewrite Hno in Hin. destruct Hin.
  - split; [intros _; exact H|reflexivity].
Qed.

Lemma skipn_nonempty (w : list byte) (start : N) :
  start < N.of_nat (length w) -> skipn (N.to_nat start) w <> [].
Proof. intros Hlt E. apply (f_equal (@length _)) in E. rewrite skipn_length in E. cbn in E. lia. Qed.

Lemma drun_app d q a b : drun d q (a ++ b) = drun d (drun d q a) b.
Proof. revert q. induction a as [|x a IH]; intros q; [reflexivity|apply IH]. Qed.

Section Reach.
  Variables (d : dfa) (H : reachmap).
  Hypothesis HR : reach_ok d H = true.

  Lemma reach_entry_spec q p u n : PositiveMap.find q H = Some (p, u, n) ->
    dstep d p (unit_of_N u) = q /\ u <= 256 /\
    (p = d_start d \/ exists p' u' n', PositiveMap.find p H = Some (p', u', n') /\ u' < 256 /\ n' < n).
  Proof.
    intros Hf. apply (forallb_find _ _ _ _ HR) in Hf. cbn [reach_entry fst snd] in Hf.
    apply andb_prop in Hf as [Hf Hp]. apply andb_prop in Hf as [Hstep Hu].
    split; [apply Pos.eqb_eq, Hstep|]. split; [apply N.leb_le, Hu|].
    apply orb_prop in Hp as [Hp|Hp]; [left; apply Pos.eqb_eq, Hp|right].
    destruct (PositiveMap.find p H) as [[[p' u'] n']|]; [|discriminate].
    apply andb_prop in Hp as [Hu' Hn']. exists p', u', n'. split; [reflexivity|]. split; apply N.ltb_lt; assumption.
  Qed.

  Lemma pred_reached : forall n q p u, PositiveMap.find q H = Some (p, u, n) ->
    exists bs, bytes_ok bs /\ drun d (d_start d) bs = p.
  Proof.
    induction n as [n IH] using (well_founded_induction N.lt_wf_0). intros q p u Hf.
    destruct (reach_entry_spec q p u n Hf) as (_ & _ & [->|(p' & u' & n' & Ep & Hu' & Hn')]).
    - exists []. split; [constructor|reflexivity].
    - destruct (IH n' Hn' p p' u' Ep) as (bs & Hbs & Hrun).
      destruct (reach_entry_spec p p' u' n' Ep) as (Hstep & _).
      unfold unit_of_N in Hstep. rewrite (proj2 (N.ltb_lt _ _) Hu') in Hstep.
      exists (bs ++ [u']). split; [apply Forall_app; split; [exact Hbs|repeat constructor; exact Hu']|].
      rewrite drun_app, Hrun. exact Hstep.
  Qed.

  (* every hinted state shows the matches of a concrete string (C08: a reported tie is never spurious) *)
  Theorem reached_has_string q e : PositiveMap.find q H = Some e ->
    exists rest j, bytes_ok rest /\ (j <= length rest)%nat /\ mstate d (d_start d) rest j = q.
  Proof.
    destruct e as [[p u] n]. intros Hf. destruct (reach_entry_spec q p u n Hf) as (Hstep & _ & _).
    destruct (pred_reached n q p u Hf) as (bs & Hbs & Hrun).
    exists (bs ++ match unit_of_N u with UB b => [b] | UEoi => [] end), (length bs). split; [|split].
    - apply Forall_app. split; [exact Hbs|]. unfold unit_of_N. destruct (N.ltb_spec u 256); repeat constructor; assumption.
    - rewrite app_length. lia.
    - rewrite mstate_at, Hrun. exact Hstep.
  Qed.
End Reach.
