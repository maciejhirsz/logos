From Coq Require Import List Arith.
From LogosV Require Import Runtime.LexerApi.
Local Open Scope N_scope.

Lemma nth_set_nth_same {A} (l : list A) i x d : (i < length l)%nat -> nth i (set_nth l i x) d = x.
Proof.
  revert i. induction l as [|a l IH]; intros i H; [inversion H|].
  destruct i as [|i]; [reflexivity|]. exact (IH i (proj2 (Nat.succ_lt_mono _ _) H)).
Qed.
Lemma nth_set_nth_other {A} (l : list A) i j x d : j <> i -> nth j (set_nth l i x) d = nth j l d.
Proof.
  revert i j. induction l as [|a l IH]; intros [|i] [|j] H; try reflexivity; [contradiction|].
  apply IH. congruence.
Qed.
Lemma set_nth_length {A} (l : list A) i x : length (set_nth l i x) = length l.
Proof. revert i. induction l as [|a l IH]; intros [|i]; cbn [set_nth length]; [reflexivity..|f_equal; apply IH]. Qed.

Theorem morph_preserves l :
  lx_start (do_morph l) = lx_start l /\ lx_end (do_morph l) = lx_end l /\ lx_prefix (do_morph l) = lx_prefix l.
Proof. repeat split. Qed.
