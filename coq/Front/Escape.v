(* Front/Escape.v — model of Literal::escape(literal = true) (parser/definition.rs:27-52, which
   uses regex_syntax::escape / escape_into) over byte strings, and of the fragment of the regex
   literal grammar its output lives in. *)
From Coq Require Import List NArith Bool Lia.
Import ListNotations.
Local Open Scope N_scope.

(* regex_syntax::is_meta_character:  \ . + * ? ( ) | [ ] { } ^ $ # & - ~ *)
Definition is_meta (b : N) : bool :=
  existsb (N.eqb b) [92; 46; 43; 42; 63; 40; 41; 124; 91; 93; 123; 125; 94; 36; 35; 38; 45; 126].

Definition hexdigit (n : N) : N := if n <? 10 then 48 + n else 55 + n.       (* 0-9, A-F *)
Definition unhex (c : N) : option N :=
  if (48 <=? c) && (c <=? 57) then Some (c - 48)
  else if (65 <=? c) && (c <=? 70) then Some (c - 55)
  else if (97 <=? c) && (c <=? 102) then Some (c - 87)
  else None.

(* str literal (its UTF-8 bytes): every meta character gets a backslash, everything else is verbatim *)
Definition esc_str_byte (b : N) : list N := if is_meta b then [92; b] else [b].
Definition escape_str (bs : list N) : list N := flat_map esc_str_byte bs.

(* byte-string literal: ASCII as above, bytes >= 128 as \xHH *)
Definition esc_bytes_byte (b : N) : list N :=
  if b <=? 127 then esc_str_byte b else [92; 120; hexdigit (b / 16); hexdigit (b mod 16)].
Definition escape_bytes (bs : list N) : list N := flat_map esc_bytes_byte bs.

(* the literal fragment of the regex grammar: plain byte | \ meta | \xHH; fuel >= length *)
Fixpoint parse_lit (fuel : nat) (s : list N) : option (list N) :=
  match fuel with
  | O => match s with [] => Some [] | _ => None end
  | S f =>
      match s with
      | [] => Some []
      | c :: r =>
          if c =? 92 then
            match r with
            | [] => None
            | c2 :: r2 =>
                if c2 =? 120 then
                  match r2 with
                  | h :: l :: r3 =>
                      match unhex h, unhex l, parse_lit f r3 with
                      | Some a, Some b, Some t => Some ((a * 16 + b) :: t)
                      | _, _, _ => None
                      end
                  | _ => None
                  end
                else if is_meta c2 then option_map (cons c2) (parse_lit f r2) else None
            end
          else if is_meta c then None else option_map (cons c) (parse_lit f r)
      end
  end.

Lemma unhex_hexdigit n : n < 16 -> unhex (hexdigit n) = Some n.
Proof.
  intros H. unfold hexdigit. destruct (N.ltb_spec n 10); unfold unhex.
  - rewrite (proj2 (N.leb_le 48 (48 + n))), (proj2 (N.leb_le (48 + n) 57)) by lia. cbn [andb]. f_equal. lia.
  - rewrite (proj2 (N.leb_gt (55 + n) 57)), andb_false_r by lia.
    rewrite (proj2 (N.leb_le 65 (55 + n))), (proj2 (N.leb_le (55 + n) 70)) by lia. cbn [andb]. f_equal. lia.
Qed.

Lemma parse_esc_str_byte b f r :
  parse_lit (S f) (esc_str_byte b ++ r) = option_map (cons b) (parse_lit f r).
Proof.
  (* [b =? 120] and [b =? 92] are decided by is_meta b: x is not a meta character and the backslash is one *)
  unfold esc_str_byte. destruct (is_meta b) eqn:Em; cbn [app parse_lit].
  - rewrite N.eqb_refl. destruct (N.eqb_spec b 120) as [->|_]; [discriminate Em|]. rewrite Em. reflexivity.
  - destruct (N.eqb_spec b 92) as [->|_]; [discriminate Em|]. rewrite Em. reflexivity.
Qed.

Lemma parse_esc_bytes_byte b f r : b < 256 ->
  parse_lit (S f) (esc_bytes_byte b ++ r) = option_map (cons b) (parse_lit f r).
Proof.
  intros Hb. unfold esc_bytes_byte. destruct (b <=? 127); [apply parse_esc_str_byte|].
  cbn [app parse_lit]. rewrite !N.eqb_refl.
  rewrite (unhex_hexdigit (b / 16)) by (apply N.div_lt_upper_bound; lia).
  rewrite (unhex_hexdigit (b mod 16)) by (apply N.mod_lt; lia).
  rewrite N.mul_comm, <- (N.div_mod b 16) by lia. destruct (parse_lit f r); reflexivity.
Qed.

Theorem parse_flat_map (esc : N -> list N) (P : N -> Prop) :
  (forall b f r, P b -> parse_lit (S f) (esc b ++ r) = option_map (cons b) (parse_lit f r)) ->
  forall bs, Forall P bs -> forall fuel, (length (flat_map esc bs) <= fuel)%nat ->
  parse_lit fuel (flat_map esc bs) = Some bs.
Proof.
  intros Hstep bs Hbs. induction Hbs as [|b bs Hb _ IH]; intros fuel Hf.
  - destruct fuel; reflexivity.
  - cbn [flat_map] in *. rewrite app_length in Hf.
    (* esc b is not empty: the step would add a byte to the parse of nothing *)
    assert (Hne : (1 <= length (esc b))%nat).
    { specialize (Hstep b O [] Hb). destruct (esc b); [discriminate Hstep|cbn [length]; lia]. }
    destruct fuel as [|fuel]; [lia|].
    rewrite (Hstep b fuel _ Hb), IH by lia. reflexivity.
Qed.
