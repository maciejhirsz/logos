(* Property C14 — Lexer accessors, clone, morph and spanned agree in every call order.
   In the model slice() is source[span()] and remainder() is source[span().end..] by definition; that the
   implementation agrees is the correspondence K5 (random histories against run_history). *)
From Coq Require Import List NArith Lia.
From LogosV Require Import Engine.Model Engine.Run Runtime.LexerApi Runtime.LexerApiProofs.
Local Open Scope N_scope.

(* an operation never touches a lexer other than the current one (a clone is independent of its
   original and vice versa), and never removes one *)
Theorem C14_step_only_current : forall defs utf8 (w : list byte) wd o j d,
  (snd wd < length (fst wd))%nat -> j <> snd wd -> (j < length (fst wd))%nat ->
  nth j (fst (snd (step defs utf8 w wd o))) d = nth j (fst wd) d.
Proof.
  intros defs utf8 w [pool c] o j d _ Hj Hlen. cbn [fst snd] in *.
  destruct o; cbn [step fst snd].
  1-2: destruct (do_next _ _ _ _) as [obs l'].
  1-3, 6: apply nth_set_nth_other, Hj.     (* next, spanned, bump and morph write slot c only *)
  - apply app_nth1, Hlen.
  - reflexivity.
Qed.

(* clone: the new lexer is an exact copy (position, partial mode, token type) and becomes current *)
Theorem C14_clone_is_copy : forall defs utf8 (w : list byte) wd d, (snd wd < length (fst wd))%nat ->
  let wd' := snd (step defs utf8 w wd OClone) in
  nth (snd wd') (fst wd') d = nth (snd wd) (fst wd) d /\ length (fst wd') = S (length (fst wd)).
Proof.
  intros defs utf8 w wd d Hc. cbn [step fst snd]. split.
  - rewrite nth_middle. apply nth_indep, Hc.
  - apply last_length.
Qed.

(* morph keeps the position and the partial-mode flag; morphing there and back is the identity *)
Theorem C14_morph_preserves : forall l,
  lx_start (do_morph l) = lx_start l /\ lx_end (do_morph l) = lx_end l /\ lx_prefix (do_morph l) = lx_prefix l.
Proof. exact morph_preserves. Qed.
Theorem C14_morph_back : forall l, (lx_def l <= 1)%nat -> do_morph (do_morph l) = l.
Proof. intros [s e p [|[|n]]]; cbn; [reflexivity|reflexivity|lia]. Qed.

(* spanned() yields exactly what manual iteration yields *)
Theorem C14_spanned_eq_next : forall defs utf8 (w : list byte) wd, step defs utf8 w wd OSpanned = step defs utf8 w wd ONext.
Proof. reflexivity. Qed.

Theorem C14_bump_in_range : forall utf8 (w : list byte) l k, lx_start l <= lx_end l -> lx_end l <= N.of_nat (length w) ->
  lx_start (do_bump utf8 w l k) <= lx_end (do_bump utf8 w l k) /\ lx_end (do_bump utf8 w l k) <= N.of_nat (length w).
Proof.
  intros utf8 w l k H1 H2. unfold do_bump.
  destruct (boundary_at utf8 w (lx_end l + k)) eqn:E; [|split; assumption].
  cbn [lx_start lx_end]. unfold boundary_at in E.
  destruct (N.ltb_spec (N.of_nat (length w)) (lx_end l + k)); [discriminate E|lia].
Qed.
