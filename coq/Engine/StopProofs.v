(* Engine/StopProofs.v — the attempt under the certificates: what it records (attempt_ctx_correct) and where it
   stops (C02): liveness hints are exact, an attempt consumes a byte only if the text can still be extended to
   (or confirms) a match, and stops at the first byte after which it cannot.  What [determined] decides (C07). *)
From Coq Require Import List Arith NArith Bool FMapPositive Lia.
From LogosV Require Import Engine.Model Engine.Cert Engine.CertProofs Engine.SpecProofs.
Import ListNotations.
Local Open Scope N_scope.

Lemma viable_end_le d lv : forall rest q k, viable_end d lv q rest k <= k + N.of_nat (length rest).
Proof.
  induction rest as [|b rest IH]; intros q k; cbn [viable_end length]; [lia|].
  destruct (lv (dstep d q (UB b))); [specialize (IH (dstep d q (UB b)) (k + 1))|]; lia.
Qed.

(* a ranked state is live: its rank bounds the distance to a match *)
Lemma rank_live d R : rank_ok d R = true ->
  forall r q, PositiveMap.find q R = Some r -> Live d q.
Proof.
  intros HR r. induction r as [r IH] using (well_founded_induction N.lt_wf_0). intros q Hq.
  pose proof (forallb_find _ _ _ _ HR Hq) as H. cbn [fst snd] in H. apply orb_prop in H as [H|H].
  - apply existsb_units in H as [u [Hu Hm]]. exact (live_now d q u Hu (proj1 (nomatch_false d _) Hm)).
  - apply existsb_bytes in H as [b [Hb Hlt]].
    destruct (PositiveMap.find (dstep d q (UB b)) R) as [r'|] eqn:E; [|discriminate].
    apply N.ltb_lt in Hlt. exact (live_step d q b Hb (IH r' Hlt _ E)).
Qed.

(* What the liveness hints say of the DFA alone: ranked states are live, the others are outside the DFA or in D. *)
Section Liveness.
  Variables (d : dfa) (R : rankmap) (D : pset).
  Hypothesis Hok : dfa_ok d = true.
  Hypothesis HR : rank_ok d R = true.
  Hypothesis HC : classify_ok d R D = true.
  Hypothesis HD : dead_ok d D = true.

  Lemma lv_live q : lv_of R q = true <-> Live d q.
  Proof.
    split.
    - unfold lv_of. destruct (PositiveMap.find q R) as [r|] eqn:E; [|discriminate].
      intros _. exact (rank_live d R HR r q E).
    - intros HL. destruct (lv_of R q) eqn:E; [reflexivity|]. exfalso.
      unfold classify_ok in HC. apply andb_prop in HC as [HC1 _].
      destruct (PositiveMap.find q (d_states d)) as [st|] eqn:Eq.
      + apply (forallb_find _ _ _ _ HC1) in Eq. cbn [fst] in Eq. rewrite E in Eq.
        exact (dead_ok_sound d D HD q Eq HL).
      + exact (absent_not_live d q (dfa_dead_absent d Hok) Eq HL).
  Qed.

  Lemma lv_not_live q : lv_of R q = false <-> ~ Live d q.
  Proof. rewrite <- not_true_iff_false, lv_live. reflexivity. Qed.

  Lemma determined_spec q : determined d R q = true ->
    ~ Live d (dstep d q UEoi) /\
    forall b, byte_ok b -> ~ Live d (dstep d q (UB b)) /\ win d (dstep d q (UB b)) = win d (dstep d q UEoi).
  Proof.
    unfold determined. intros H. apply andb_prop in H as [He Hb]. split.
    - apply lv_not_live, negb_true_iff, He.
    - intros b Hbk. pose proof (proj1 (forallb_bytes _) Hb b Hbk) as H.
      apply andb_prop in H as [Hl Hw]. split; [apply lv_not_live, negb_true_iff, Hl|exact (proj1 (winner_eqb_eq _ _) Hw)].
  Qed.

  Lemma undetermined_witness q : determined d R q = false ->
    Live d (dstep d q UEoi) \/
    exists b, byte_ok b /\ (Live d (dstep d q (UB b)) \/ win d (dstep d q (UB b)) <> win d (dstep d q UEoi)).
  Proof.
    unfold determined. intros H. apply andb_false_iff in H as [He|Hb].
    - left. apply lv_live, negb_false_iff, He.
    - right. destruct (forallb_false _ _ Hb) as [b [Hin Hf]].
      exists b. split; [exact (proj1 (in_all_bytes b) Hin)|].
      apply andb_false_iff in Hf as [Hl|Hw].
      + left. apply lv_live, negb_false_iff, Hl.
      + right. intros E. rewrite (proj2 (winner_eqb_eq _ _) E) in Hw. discriminate.
  Qed.

  (* Prop reading of viable_end: the number of bytes read before the first byte (end of input
     counting as one) after which no pattern can match any extension of the text read *)
  Definition FirstDead (q : qid) (rest : list byte) (v : nat) : Prop :=
    (v <= length rest)%nat /\
    (forall i b, (i < v)%nat -> nth_error rest i = Some b ->
        Live d (dstep d (drun d q (firstn i rest)) (UB b))) /\
    (forall b, nth_error rest v = Some b -> ~ Live d (dstep d (drun d q (firstn v rest)) (UB b))).

  Lemma viable_end_spec : forall rest q k,
    exists v, viable_end d (lv_of R) q rest k = k + N.of_nat v /\ FirstDead q rest v.
  Proof.
    induction rest as [|b rest IH]; intros q k; cbn [viable_end].
    - exists 0%nat. split; [lia|]. split; [exact (Nat.le_refl _)|]. split; [intros i b Hi; lia|discriminate].
    - destruct (lv_of R (dstep d q (UB b))) eqn:E.
      + destruct (IH (dstep d q (UB b)) (k + 1)) as [v [Hv [H1 [H2 H3]]]].
        exists (S v). split; [lia|]. split; [exact (le_n_S _ _ H1)|]. split; [|exact H3].
        intros [|i] b0 Hi Hn.
        * injection Hn as <-. apply lv_live. exact E.
        * exact (H2 i b0 (proj2 (Nat.succ_lt_mono _ _) Hi) Hn).
      + exists 0%nat. split; [lia|]. split; [exact (Nat.le_0_l _)|]. split; [intros i b0 Hi; lia|].
        intros b0 Hn. injection Hn as <-. apply lv_not_live, E.
  Qed.
End Liveness.

Theorem attempt_ctx_correct d g V D start rest :
  dfa_ok d = true -> sim_ok d g V D = true -> bytes_ok rest -> rest <> [] ->
  exists off, attempt_ref g false start rest = Acted (scan d (d_start d) rest start None) off.
Proof.
  intros Hok Hsim.
  exact (root_scan d g (paired V) (sim_pair_ok d g V D Hsim) start _ rest (sim_root d g V D Hsim) (dfa_start_nomatch d Hok)).
Qed.

Section Exact.
  Variables (d : dfa) (g : graph) (V : pairing) (R : rankmap) (D : pset).
  Hypothesis Hok : dfa_ok d = true.
  Hypothesis Hsim : sim_ok d g V D = true.
  Hypothesis Hex : exact_ok d g V R D = true.

  Let lv := lv_of R.

  Lemma exact_ok_spec : rank_ok d R = true /\ classify_ok d R D = true /\
    forall s q, inV V s q = true -> exact_pair d g R s q = true.
  Proof.
    unfold exact_ok in Hex. apply andb_prop in Hex as [H H3]. apply andb_prop in H as [H1 H2].
    exact (conj H1 (conj H2 (fun s q => forallb_inV _ V s q H3))).
  Qed.

  Lemma exact_ok_hints : rank_ok d R = true /\ classify_ok d R D = true /\ dead_ok d D = true.
  Proof.
    destruct exact_ok_spec as [HR [HC _]]. exact (conj HR (conj HC (proj1 (proj2 (sim_ok_spec d g V D Hsim))))).
  Qed.

  Lemma lv_iff_live q : lv q = true <-> Live d q.
  Proof. destruct exact_ok_hints as [HR [HC HD]]. exact (lv_live d R D Hok HR HC HD q). Qed.

  Lemma lv_false_iff q : lv q = false <-> ~ Live d q.
  Proof. destruct exact_ok_hints as [HR [HC HD]]. exact (lv_not_live d R D Hok HR HC HD q). Qed.

  Lemma exact_pair_spec s q st : inV V s q = true -> gfind g s = Some st ->
    (forall b t, byte_ok b -> edge_first (g_edges st) b = Some t ->
        lv (dstep d q (UB b)) = true \/ dmatch d (dstep d q (UB b)) <> []) /\
    (forall t, g_eoi st = Some t -> dmatch d (dstep d q UEoi) <> []).
  Proof.
    intros HV Hst. generalize (proj2 (proj2 exact_ok_spec) s q HV). unfold exact_pair. rewrite Hst. intros H.
    apply andb_prop in H as [Hb He]. split.
    - intros b t Hbk Ed. apply (proj1 (forallb_bytes _) Hb) in Hbk. rewrite Ed in Hbk.
      apply orb_prop in Hbk as [H|H]; [left; exact H|right; exact (proj1 (nomatch_false d _) H)].
    - intros t Et. rewrite Et in He. exact (proj1 (nomatch_false d _) He).
  Qed.

  (* how far an attempt may read: Stops q rest k k' — from DFA state q at offset k an attempt may stop
     with offset k'.  A relation, not a function: where the successor state shows a match and is not live
     both stop_dead and stop_step apply, and at the end of the input with a match both stop_eoi and
     stop_eoi_hop: a graph state that records the match early needs no edge there. *)
  Inductive Stops : qid -> list byte -> N -> N -> Prop :=
  | stop_eoi q k : Stops q [] k k
  | stop_eoi_hop q k : dmatch d (dstep d q UEoi) <> [] -> Stops q [] k (k + 1)
  | stop_dead q b rest k : lv (dstep d q (UB b)) = false -> Stops q (b :: rest) k k
  | stop_step q b rest k k' :
      lv (dstep d q (UB b)) = true \/ dmatch d (dstep d q (UB b)) <> [] ->
      Stops (dstep d q (UB b)) rest (k + 1) k' -> Stops q (b :: rest) k k'.

  Lemma at_eoi_stops start hops s q off c c' off' : inV V s q = true ->
    at_eoi g false start hops s off c = Acted c' off' -> Stops q [] off off'.
  Proof.
    intros HV H. destruct (sim_pair_ok d g V D Hsim s q HV) as [st [Hst [_ [_ Heoi]]]].
    rewrite at_eoi_eq, Hst, andb_false_r in H.
    destruct ((s =? g_root g)%positive && (off =? start)); [discriminate|].
    unfold EoiOk in Heoi. destruct (g_eoi st) as [t|] eqn:Et.
    - (* the end-of-input edge leads to a terminal state, which acts one offset further *)
      destruct Heoi as [st' [Est' [_ [[Eeoi _] _]]]]. destruct hops as [|h]; [discriminate|].
      rewrite at_eoi_eq, Est', andb_false_r, Eeoi in H.
      destruct ((t =? g_root g)%positive && (off + 1 =? start)); [discriminate|].
      injection H as _ <-. apply stop_eoi_hop. exact (proj2 (exact_pair_spec s q st HV Hst) t Et).
    - injection H as _ <-. apply stop_eoi.
  Qed.

  Lemma walk_stops start hops : forall rest s q off c c' off',
    bytes_ok rest -> inV V s q = true ->
    walk g false start hops rest s off c = Acted c' off' -> Stops q rest off off'.
  Proof.
    induction rest as [|b rest IH]; intros s q off c c' off' Hw HV H.
    - exact (at_eoi_stops start hops s q off c c' off' HV H).
    - apply Forall_cons_iff in Hw as [Hb Hw'].
      destruct (sim_pair_ok d g V D Hsim s q HV) as [st [Hst [_ [Hbytes _]]]].
      cbn [walk] in H. rewrite Hst in H.
      specialize (Hbytes b Hb). unfold ByteOk in Hbytes.
      destruct (edge_first (g_edges st) b) as [t|] eqn:Ed.
      + destruct Hbytes as [st' [_ [HVt _]]]. apply stop_step.
        * exact (proj1 (exact_pair_spec s q st HV Hst) b t Hb Ed).
        * exact (IH t _ (off + 1) _ c' off' Hw' HVt H).
      + injection H as _ <-. destruct Hbytes as [HD _].
        apply stop_dead, lv_false_iff, HD.
  Qed.

  Lemma attempt_stops start rest c off : bytes_ok rest ->
    attempt_ref g false start rest = Acted c off -> Stops (d_start d) rest start off.
  Proof. intros Hw. exact (walk_stops start _ rest _ _ start None c off Hw (sim_root d g V D Hsim)). Qed.

  (* where nothing matches, Stops leaves one offset: that of the specification *)
  Lemma stops_viable_end : forall q rest k k',
    Stops q rest k k' ->
    (forall j, (j <= length rest)%nat -> dmatch d (mstate d q rest j) = []) ->
    k' = viable_end d lv q rest k.
  Proof.
    intros q rest k k' HS. induction HS as [q k|q k Hm|q b rest k Hl|q b rest k k' Hor HS IH]; intros Hno.
    - reflexivity.
    - destruct (Hm (Hno 0%nat (Nat.le_0_l _))).
    - cbn [viable_end]. rewrite Hl. reflexivity.
    - cbn [viable_end]. destruct Hor as [Hl|Hm]; [|destruct (Hm (Hno 0%nat (Nat.le_0_l _)))].
      rewrite Hl. apply IH. intros j Hj. apply (Hno (S j)). cbn [length]. lia.
  Qed.

  (* The attempt under the whole certificate: it records what scan finds, and where that is nothing it stops
     where attempt_spec does.  (With a match the two offsets may differ: the loop does not look at them.) *)
  Lemma attempt_exact start rest : bytes_ok rest -> rest <> [] ->
    exists off, attempt_ref g false start rest = Acted (scan d (d_start d) rest start None) off /\
      (scan d (d_start d) rest start None = None -> off = viable_end d lv (d_start d) rest start).
  Proof.
    intros Hw Hne. destruct (attempt_ctx_correct d g V D start rest Hok Hsim Hw Hne) as [off Hoff].
    exists off. split; [exact Hoff|]. intros Es.
    exact (stops_viable_end _ _ _ _ (attempt_stops start rest _ off Hw Hoff) (proj1 (scan_none_iff d rest start Hok Hw) Es)).
  Qed.

  (* the start state matches nothing, nor does any of its successors: the root has no accept to record *)
  Lemma record_root : exists st, gfind g (g_root g) = Some st /\ forall off c, record st off c = c.
  Proof.
    destruct (sim_pair_ok d g V D Hsim _ _ (sim_root d g V D Hsim)) as [st [Est [[Hearly Hacc] _]]].
    exists st. split; [exact Est|]. intros off c. unfold record. destruct (g_early st) as [l|].
    - specialize (Hearly l eq_refl UEoi I). rewrite win_nomatch in Hearly by exact (dfa_start_step_nomatch d Hok UEoi I). discriminate.
    - destruct (g_accept st) as [l|]; [|reflexivity].
      specialize (Hacc l eq_refl eq_refl). rewrite win_nomatch in Hacc by exact (dfa_start_nomatch d Hok). discriminate.
  Qed.

  (* an edge needs a live or matching successor: the root has none on a byte that leads the DFA into D *)
  Lemma attempt_dead b rest start : byte_ok b -> pmem (dstep d (d_start d) (UB b)) D = true ->
    attempt_ref g false start (b :: rest) = Acted None start.
  Proof.
    intros Hb HD. pose proof (sim_root d g V D Hsim) as Hroot. destruct record_root as [st [Est Hrec]].
    unfold attempt_ref, hops_of. cbn [walk]. rewrite Est, Hrec.
    destruct (edge_first (g_edges st) b) as [t|] eqn:Ed; [exfalso|reflexivity].
    destruct (exact_pair_spec _ _ st Hroot Est) as [Hx _]. destruct (Hx b t Hb Ed) as [Hl|Hne].
    - apply lv_iff_live in Hl. exact (not_live_D d g V D Hsim _ HD Hl).
    - exact (Hne (dfa_start_step_nomatch d Hok (UB b) Hb)).
  Qed.
End Exact.
