From Coq Require Import List NArith.
From LogosV Require Import Engine.Model Runtime.Callbacks.
Import ListNotations.
Local Open Scope N_scope.

Theorem construct_matches_table : forall v, construct v = documented (shape_of v).
Proof. destruct v; reflexivity. Qed.

(* bytes bumped inside a callback extend the current item and are excluded from the next *)
Theorem bump_extends_and_excludes attempt act fb w p fuel start l e off bump :
  attempt p start (skipn (N.to_nat start) w) = Acted (Some (l, e)) off ->
  act l start e = (AEmit, bump) ->
  next_from attempt act fb w p (S fuel) start = ([], Yield (Item true (Some l) start (e + bump)) (e + bump)).
Proof. intros H Ha. cbn [next_from]. rewrite H, Ha. reflexivity. Qed.
