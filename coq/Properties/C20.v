(* Property C20 — no backtracking: a match attempt reads the source left to right.  The theorems below bind hi
   only as an upper bound of the offsets read; OptProofs.walk_opt_log and ProgProofs.walk_prog_log, from which
   they follow, pin it to an offset that is read (OptProofs.linear_from). *)
From Coq Require Import NArith.
From LogosV Require Import Engine.Model Engine.ExecOpt Engine.OptProofs Engine.Prog Engine.ProgProofs.
Local Open Scope N_scope.

(* For every graph, unroll factor U >= 1, mode and input: the offsets at which one attempt reads
   the source never decrease, none lies before the attempt's start, and the number of reads is at
   most 3 * (number of offsets examined), where the offsets examined are start .. hi for some hi
   that no read exceeds — independent of the graph (hence of the patterns). *)
Theorem C20_reads_monotone_linear : forall U g p start (rest : list byte) r tr,
  (1 <= U)%nat ->
  attempt_opt U g p start rest = (r, tr) ->
  exists hi, start <= hi /\ sorted_in start (offs tr) hi /\
             N.of_nat (length tr) <= 3 * (hi + 1 - start).
Proof.
  intros U g p start rest r tr HU H. apply linear_bound. change tr with (snd (r, tr)). rewrite <- H.
  apply walk_opt_log, HU.
Qed.

(* The same for the code actually emitted: ANY program that the translator can read off the generated
   text (Engine/Prog.v — whatever its tables, conditions and targets are, accepted by the checker or
   not) reads left to right, at most three times per offset. *)
Theorem C20_emitted_reads_monotone_linear : forall U p n isprefix start (rest : list byte) r tr,
  (1 <= U)%nat ->
  attempt_prog U p n isprefix start rest = (r, tr) ->
  exists hi, start <= hi /\ sorted_in start (offs tr) hi /\
             N.of_nat (length tr) <= 3 * (hi + 1 - start).
Proof.
  intros U p n isprefix start rest r tr HU H. apply linear_bound. change tr with (snd (r, tr)). rewrite <- H.
  apply walk_prog_log, HU.
Qed.
