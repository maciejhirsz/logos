From Coq Require Import List NArith Bool.
From LogosV Require Import Cli.Cli.
Import ListNotations.
Local Open Scope N_scope.

(* [leqb] is any function that compares lists member by member with [eqb]: text_eqb with N.eqb,
   lines_eqb with text_eqb *)
Lemma listwise_eqb_eq {A} (eqb : A -> A -> bool) (leqb : list A -> list A -> bool) :
  (forall x y, eqb x y = true <-> x = y) ->
  (forall a b, leqb a b = match a, b with [], [] => true | x :: a', y :: b' => eqb x y && leqb a' b' | _, _ => false end) ->
  forall a b, leqb a b = true <-> a = b.
Proof.
  intros Heq Hl. induction a as [|x a IH]; intros [|y b]; rewrite Hl.
  1-3: split; (reflexivity || discriminate).
  rewrite andb_true_iff, Heq, IH. split.
  - intros [-> ->]. reflexivity.
  - intros [= -> ->]. split; reflexivity.
Qed.
Lemma eq_ignore_newlines_iff a b : eq_ignore_newlines a b = true <-> lines a = lines b.
Proof.
  apply (listwise_eqb_eq text_eqb lines_eqb); [|intros [] []; reflexivity].
  apply (listwise_eqb_eq N.eqb text_eqb N.eqb_eq). intros [] []; reflexivity.
Qed.

(* main() decides by one question: does the file at p hold the output, up to line endings? *)
Definition up_to_date (output : text) (p : N) (f : fs) : bool :=
  match f p with Some ex => eq_ignore_newlines ex output | None => false end.

Lemma run_some output p check f : run output (Some p) check f =
  if up_to_date output p f then (Ok, None, f) else if check then (Err, None, f) else (Ok, None, fs_set f p output).
Proof. unfold run, up_to_date. destruct (f p) as [ex|]; [destruct (eq_ignore_newlines ex output)|]; reflexivity. Qed.

Lemma up_to_date_iff output p f : up_to_date output p f = true <-> exists ex, f p = Some ex /\ lines ex = lines output.
Proof.
  unfold up_to_date. destruct (f p) as [ex|].
  - rewrite eq_ignore_newlines_iff. split; [intros H; exists ex; auto|intros [ex' [[= <-] H]]; exact H].
  - split; [discriminate|intros [ex [H _]]; discriminate H].
Qed.

(* --check never modifies the file system, whatever the outcome *)
Theorem check_never_writes output p f : forall o so f', run output (Some p) true f = (o, so, f') -> f' = f.
Proof. intros o so f'. rewrite run_some. destruct (up_to_date output p f); intros [= _ _ <-]; reflexivity. Qed.

(* after a write, --check succeeds and a second write changes nothing *)
Theorem write_then_check_ok output p f :
  let f' := snd (run output (Some p) false f) in
  fst (fst (run output (Some p) true f')) = Ok /\ snd (run output (Some p) false f') = f'.
Proof.
  intros f'. assert (H : up_to_date output p f' = true).
  { subst f'. rewrite run_some. destruct (up_to_date output p f) eqn:E; cbn [snd]; [exact E|].
    apply up_to_date_iff. exists output. unfold fs_set. rewrite N.eqb_refl. split; reflexivity. }
  rewrite !run_some, H. split; reflexivity.
Qed.

(* without --output nothing is written and the output goes to stdout *)
Theorem stdout_mode output check f : run output None check f = (Ok, Some output, f).
Proof. reflexivity. Qed.
