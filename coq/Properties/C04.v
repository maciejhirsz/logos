(* Property C04 — spans never split a UTF-8 code point on str input. *)
From Coq Require Import List NArith Bool FMapPositive Lia.
From LogosV Require Import Base.Utf8 Engine.Model Engine.Cert Engine.CertProofs Engine.SpecProofs
  Engine.Utf8Proofs Engine.Utf8Lex Engine.Run Runtime.Source Engine.Prog Engine.StreamProg.
Local Open Scope N_scope.

(* every match of a certified DFA that starts on a char boundary of valid UTF-8 text ends on one *)
Theorem C04_match_ends_on_boundary : forall d P (w : list byte) p j,
  utf8_ok d P = true -> bytes_ok w -> utf8_valid w = true ->
  Bnd w p -> (p + j <= length w)%nat ->
  dmatch d (mstate d (d_start d) (skipn p w) j) <> nil -> Bnd w (p + j).
Proof. exact match_ends_on_boundary. Qed.

(* Bnd (the automaton reading) is str::is_char_boundary on valid text *)
Theorem C04_bnd_is_char_boundary : forall (w : list byte) i,
  bytes_ok w -> utf8_valid w = true -> (i <= length w)%nat ->
  (Bnd w i <-> is_boundary true w (N.of_nat i) = true).
Proof.
  intros w i _ Hv Hi. unfold is_boundary.
  destruct i as [|i]; [split; reflexivity|].
  replace (N.of_nat (S i) =? 0) with false by (symmetry; apply N.eqb_neq; lia).
  replace (N.of_nat (length w) <? N.of_nat (S i)) with false by (symmetry; apply N.ltb_ge; lia).
  rewrite Nat2N.id.
  destruct (nth_error w (S i)) as [b|] eqn:E.
  - rewrite (bnd_nth w (S i) b Hv E). apply iff_sym, negb_true_iff.
  - apply nth_error_None in E. replace (S i) with (length w) by lia.
    split; intros _; [apply N.eqb_refl|exact (bnd_end w Hv)].
Qed.

(* every span boundary of the lexing loop (tokens, errors, skipped regions, the final span) on
   valid UTF-8 input is a char boundary *)
Theorem C04_spans_on_boundaries : forall d g V R D P,
  dfa_ok d = true -> sim_ok d g V D = true -> exact_ok d g V R D = true -> utf8_ok d P = true ->
  forall act fb (w : list byte), bytes_ok w -> utf8_valid w = true ->
  (forall l s e, s < e -> e <= N.of_nat (length w) -> BndN w e ->
      e + snd (act l s e) <= N.of_nat (length w) /\ BndN w (e + snd (act l s e))) ->
  (forall i, i <= N.of_nat (length w) -> i <= fb i /\ fb i <= N.of_nat (length w) /\ BndN w (fb i)) ->
  forall fuel start rs o, start <= N.of_nat (length w) -> BndN w start ->
  lex_from (attempt_ref g) act fb w false fuel start = (rs, o) ->
  ends_bnd w rs /\ match o with Finished s e => BndN w s /\ BndN w e | _ => True end.
Proof.
  intros d g V R D P Hok Hsim Hex HU act fb w Hw Hv Hact Hfb fuel start rs o _.
  exact (lex_bnd d g V R D P Hok Hsim Hex HU act fb w Hw Hv Hact Hfb fuel start rs o).
Qed.

(* find_boundary of str meets the hypothesis *)
Theorem C04_fb_str_boundary : forall (w : list byte) i,
  bytes_ok w -> utf8_valid w = true -> i <= N.of_nat (length w) -> BndN w (fb_str w i).
Proof.
  intros w i _ Hv Hi. destruct (fb_str_spec w i) as [_ [_ C]]. destruct (fb_str_ok w i Hi) as [_ Hle]. unfold BndN.
  destruct (nth_error w (N.to_nat (fb_str w i))) as [b|] eqn:E.
  - apply (bnd_nth w _ b Hv E). exact (C b eq_refl).
  - apply nth_error_None in E. replace (N.to_nat (fb_str w i)) with (length w) by lia. exact (bnd_end w Hv).
Qed.

(* the same for the program the code generator emits (translator K12, checker prog_ok) *)
Theorem C04_emitted_spans_on_boundaries : forall U g p,
  prog_ok g p = true -> wf_graph g = true ->
  forall d V R D, dfa_ok d = true -> sim_ok d g V D = true -> exact_ok d g V R D = true ->
  forall P act fb (w : list byte), utf8_ok d P = true -> bytes_ok w -> utf8_valid w = true ->
  (forall l s e, s < e -> e <= N.of_nat (length w) -> BndN w e ->
      e + snd (act l s e) <= N.of_nat (length w) /\ BndN w (e + snd (act l s e))) ->
  (forall i, i <= N.of_nat (length w) -> i <= fb i /\ fb i <= N.of_nat (length w) /\ BndN w (fb i)) ->
  forall fuel start rs o, start <= N.of_nat (length w) -> BndN w start ->
  lex_from (fun ip s r => fst (attempt_prog U p (PositiveMap.cardinal (g_states g)) ip s r)) act fb w false fuel start = (rs, o) ->
  ends_bnd w rs /\ match o with Finished s e => BndN w s /\ BndN w e | _ => True end.
Proof.
  intros U g p Hp Hwf d V R D Hok Hsim Hex P act fb w HU Hw Hv Hact Hfb fuel start rs o _ Hb H.
  rewrite (lex_from_emitted U g p Hp Hwf act fb w false Hw) in H.
  exact (lex_bnd d g V R D P Hok Hsim Hex HU act fb w Hw Hv Hact Hfb fuel start rs o Hb H).
Qed.
