(* Regex/ReProofs.v — a match of r has at least complexity(r)/2 bytes; hence a literal token is
   never beaten on its own text by a regex with default priority (C09).  The saturating usize computation
   of the code is the documented value cut off at usize::MAX (complexity_sat_spec). *)
From Coq Require Import List NArith Lia.
From LogosV Require Import Base.Utf8 Regex.Re.
Import ListNotations.
Local Open Scope N_scope.

Lemma nchars_le bs : nchars bs <= N.of_nat (length bs).
Proof. induction bs as [|b r IH]; cbn [nchars length]; [lia|]. destruct (cont b); lia. Qed.

Lemma lit_complexity_le bs : lit_complexity bs <= 2 * N.of_nat (length bs).
Proof. unfold lit_complexity. pose proof (nchars_le bs). destruct (utf8_valid bs); lia. Qed.

Lemma list_min_le l x : In x l -> exists m, list_min l = Some m /\ m <= x.
Proof.
  induction l as [|y r IH]; intros Hin; [destruct Hin|]. cbn [list_min]. destruct Hin as [->|Hin].
  - destruct (list_min r) as [m|]; eexists; (split; [reflexivity|lia]).
  - destruct (IH Hin) as [m [-> Hm]]. exists (N.min y m). split; [reflexivity|lia].
Qed.

(* induction on a regex with the hypothesis for every member of a concatenation or alternation *)
Lemma re_ind' (P : re -> Prop) :
  P REmpty -> (forall bs, P (RLit bs)) -> (forall rs, P (RClassB rs)) -> (forall rs, P (RClassU rs)) -> P RLook ->
  (forall mn mx g r, P r -> P (RRep mn mx g r)) -> (forall r, P r -> P (RCap r)) ->
  (forall rs, Forall P rs -> P (RCat rs)) -> (forall rs, Forall P rs -> P (RAlt rs)) ->
  forall r, P r.
Proof.
  intros He Hl Hb Hu Hk Hr Hc Hcat Halt. fix IH 1. intros [|bs|rs|rs| |mn mx g r|r|rs|rs].
  1-5: clear IH; auto.
  - apply Hr, IH.
  - apply Hc, IH.
  - apply Hcat. induction rs as [|x rs IHrs]; constructor; [apply IH|exact IHrs].
  - apply Halt. induction rs as [|x rs IHrs]; constructor; [apply IH|exact IHrs].
Qed.

Theorem complexity_le_len : forall r w, Matches r w -> complexity r <= 2 * N.of_nat (length w).
Proof.
  (* a hand-made fixpoint over the derivation: the principle Coq generates for Matches says nothing under its
     Forall / Forall2 premises *)
  fix IH 3. intros r w H. destruct H as [|bs|rs b Hb|rs w cp Hd Hin| |mn mx g r ws Hmn Hmx HF|r w Hm|rs ws HF|rs r w Hin Hm]; cbn [complexity].
  - lia.
  - apply lit_complexity_le.
  - cbn. lia.
  - destruct w; [discriminate Hd|cbn [length]; lia].
  - lia.
  - (* repetition: at least mn copies, each of size >= complexity r / 2 *)
    assert (Hall : N.of_nat (length ws) * complexity r <= 2 * N.of_nat (length (concat ws))).
    { clear Hmn Hmx. induction HF as [|w ws Hw HF' IHF]; cbn [length concat]; [lia|].
      rewrite app_length. pose proof (IH r w Hw). lia. }
    apply (N.le_trans _ (N.of_nat (length ws) * complexity r)); [apply N.mul_le_mono_r, Hmn|exact Hall].
  - exact (IH r w Hm).
  - induction HF as [|r w rs ws Hrw HF' IHF]; cbn [fold_right concat]; [lia|].
    rewrite app_length. pose proof (IH r w Hrw). lia.
  - pose proof (IH r w Hm) as Hle.
    destruct (list_min_le _ _ (in_map complexity rs r Hin)) as [m [-> Hle']]. lia.
Qed.

Lemma sat_le x : sat x <= usize_max.
Proof. apply N.le_min_r. Qed.
Lemma sat_small x : x <= usize_max -> sat x = x.
Proof. apply N.min_l. Qed.
Lemma sat_big x : usize_max <= x -> sat x = usize_max.
Proof. apply N.min_r. Qed.
(* an operation that stays at or above the cut-off may be cut off before or after *)
Lemma sat_through f : (forall x, usize_max <= x -> usize_max <= f x) -> forall a, sat (f (sat a)) = sat (f a).
Proof.
  intros Hf a. destruct (N.le_ge_cases a usize_max) as [H|H]; [rewrite (sat_small a H); reflexivity|].
  rewrite (sat_big a H), !sat_big; [reflexivity|apply Hf, H|apply Hf, N.le_refl].
Qed.
Lemma sat_add_sat_l a b : sat (sat a + b) = sat (a + b).
Proof. apply (sat_through (fun x => x + b)). intros x H. apply (N.le_trans _ x); [exact H|apply N.le_add_r]. Qed.
Lemma sat_add_sat a b : sat (sat a + sat b) = sat (a + b).
Proof. rewrite sat_add_sat_l, (N.add_comm a), sat_add_sat_l, (N.add_comm b). reflexivity. Qed.
Lemma sat_mul_sat m c : sat (m * sat c) = sat (m * c).
Proof.
  destruct (N.eq_dec m 0) as [->|Hm]; [reflexivity|].
  apply (sat_through (N.mul m)). intros x H.
  rewrite <- (N.mul_1_l usize_max). apply N.mul_le_mono; [lia|exact H].
Qed.
(* sat is monotone, so it commutes with min *)
Lemma sat_min a b : N.min (sat a) (sat b) = sat (N.min a b).
Proof. apply (N.min_monotone sat). intros x y H. apply N.min_le_compat_r, H. Qed.

Lemma list_min_map_sat (l : list N) : list_min (map sat l) = option_map sat (list_min l).
Proof.
  induction l as [|x r IH]; [reflexivity|]. cbn [map list_min]. rewrite IH.
  destruct (list_min r) as [m|]; cbn [option_map]; [rewrite sat_min|]; reflexivity.
Qed.

(* the code's value is the documented value, cut off at usize::MAX *)
Theorem complexity_sat_spec : forall r, lits_small r = true -> complexity_sat r = sat (complexity r).
Proof.
  induction r as [|bs|rs|rs| |mn mx g s IH|s IH|rs IH|rs IH] using re_ind';
    cbn [complexity_sat complexity lits_small]; intros H; try reflexivity.
  - symmetry. apply sat_small, N.leb_le, H.
  - rewrite (IH H). apply sat_mul_sat.
  - exact (IH H).
  - (* concatenation: left fold with saturation = saturated sum *)
    enough (G : forall a, fold_left (fun acc x => sat (acc + complexity_sat x)) rs (sat a)
                          = sat (a + fold_right (fun x acc => complexity x + acc) 0 rs)) by exact (G 0).
    rewrite forallb_forall, <- Forall_forall in H.
    induction IH as [|x rs Hx _ IHrs]; intros a; cbn [fold_left fold_right]; [f_equal; lia|].
    rewrite (Hx (Forall_inv H)), sat_add_sat, (IHrs (Forall_inv_tail H)). f_equal. lia.
  - rewrite forallb_forall in H. rewrite Forall_forall in IH.
    rewrite (map_ext_in complexity_sat (fun x => sat (complexity x))) by (intros x Hx; exact (IH x Hx (H x Hx))).
    rewrite <- (map_map complexity sat), list_min_map_sat. destruct (list_min (map complexity rs)); reflexivity.
Qed.

(* the witness of finding F11 (C19_old_complexity_overflows): a doubly counted repetition, (a{4294967295}){4294967295} *)
Definition f11_witness : re := RRep 4294967295 (Some 4294967295) true (RCap (RRep 4294967295 (Some 4294967295) true (RLit [97]))).
