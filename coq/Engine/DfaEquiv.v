(* Engine/DfaEquiv.v — language equality of one leaf of a DFA and one leaf of another DFA, decided
   from a relation hint (C10, C11). *)
From Coq Require Import List NArith Bool FMapPositive.
From LogosV Require Import Engine.Model Engine.Cert Engine.CertProofs Engine.SpecProofs.
Local Open Scope N_scope.

Definition memN (x : N) (l : list N) : bool := existsb (N.eqb x) l.

Definition bisim_pair (d1 : dfa) (l1 : leaf) (d2 : dfa) (l2 : leaf) (R : pairing) (q1 q2 : qid) : bool :=
  forallb (fun u => let q1' := dstep d1 q1 u in let q2' := dstep d2 q2 u in
             inV R q1' q2' && Bool.eqb (memN l1 (dmatch d1 q1')) (memN l2 (dmatch d2 q2'))) all_units.

Definition bisim_ok (d1 : dfa) (l1 : leaf) (d2 : dfa) (l2 : leaf) (R : pairing) : bool :=
  inV R (d_start d1) (d_start d2)
  && forallb (fun kv => forallb (bisim_pair d1 l1 d2 l2 R (fst kv)) (snd kv)) (PositiveMap.elements R).

Lemma memN_In x l : memN x l = true <-> In x l.
Proof. exact (existsb_eqb N.eqb N.eqb_eq x l). Qed.

Section Sound.
  Variables (d1 : dfa) (l1 : leaf) (d2 : dfa) (l2 : leaf) (R : pairing).
  Hypothesis HB : bisim_ok d1 l1 d2 l2 R = true.

  Lemma bisim_ok_spec : inV R (d_start d1) (d_start d2) = true /\
    forall q1 q2 u, inV R q1 q2 = true -> unit_ok u ->
      inV R (dstep d1 q1 u) (dstep d2 q2 u) = true /\
      (In l1 (dmatch d1 (dstep d1 q1 u)) <-> In l2 (dmatch d2 (dstep d2 q2 u))).
  Proof.
    unfold bisim_ok in HB. apply andb_prop in HB as [H0 H]. split; [exact H0|]. intros q1 q2 u Hin Hu.
    pose proof (proj1 (forallb_units _) (forallb_inV _ R q1 q2 H Hin) u Hu) as Hp.
    apply andb_prop in Hp as [Ha Hb]. split; [exact Ha|].
    apply Bool.eqb_prop in Hb. rewrite <- !memN_In, Hb. reflexivity.
  Qed.

  Lemma bisim_run : forall bs q1 q2, bytes_ok bs -> inV R q1 q2 = true ->
    inV R (drun d1 q1 bs) (drun d2 q2 bs) = true.
  Proof.
    induction bs as [|b bs IH]; intros q1 q2 Hw Hin; cbn [drun]; [exact Hin|].
    apply Forall_cons_iff in Hw as [Hb Hw']. apply IH; [exact Hw'|].
    exact (proj1 (proj2 bisim_ok_spec q1 q2 (UB b) Hin Hb)).
  Qed.

  Theorem bisim_sound : forall (rest : list byte) j, bytes_ok rest ->
    (In l1 (dmatch d1 (mstate d1 (d_start d1) rest j)) <-> In l2 (dmatch d2 (mstate d2 (d_start d2) rest j))).
  Proof.
    intros rest j Hw. unfold mstate.
    apply (proj2 bisim_ok_spec _ _ (unit_at rest j)); [|exact (unit_at_ok rest j Hw)].
    apply bisim_run; [exact (bytes_ok_firstn j rest Hw)|exact (proj1 bisim_ok_spec)].
  Qed.
End Sound.
