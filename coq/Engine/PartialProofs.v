(* Engine/PartialProofs.v — partial lexing (C07): what a partial lexer commits on a prefix is what
   the ordinary lexer yields on every extension of that prefix.  Purely structural: it holds for
   every graph, because a state returns None at the end of the buffer whenever it has any outgoing
   transition (byte or end-of-input) — [partial_mode_test]. *)
From Coq Require Import List NArith Bool Lia.
From LogosV Require Import Engine.Model Engine.CertProofs Engine.LexProofs.
Import ListNotations.
Local Open Scope N_scope.

Lemma edge_first_nil_none es b : es = [] -> edge_first es b = None.
Proof. intros ->. reflexivity. Qed.

Lemma partial_mode_test_false st : partial_mode_test st = false -> g_edges st = [] /\ g_eoi st = None.
Proof.
  unfold partial_mode_test, no_edges. intros H.
  destruct (g_edges st); [|discriminate]. destruct (g_eoi st); [discriminate|]. auto.
Qed.

(* In partial mode the end-of-input block follows no edge and uses no hop fuel: a state with any
   transition answers "need more input", the root at the start of the attempt returns None, and a
   state without transitions acts. *)
Lemma at_eoi_partial g start hops s off c :
  at_eoi g true start hops s off c =
  match gfind g s with
  | None => Stuck
  | Some st => if partial_mode_test st then RetNone true
               else if (s =? g_root g)%positive && (off =? start) then RetNone false
               else Acted (record st off c) off
  end.
Proof.
  rewrite at_eoi_eq. destruct (gfind g s) as [st|]; [|reflexivity]. cbn zeta. rewrite andb_true_r.
  destruct (partial_mode_test st) eqn:Ep; [reflexivity|].
  rewrite (proj2 (partial_mode_test_false st Ep)). reflexivity.
Qed.

Lemma walk_prefix g start hops : forall pre ext s off c c' off',
  walk g true start (S hops) pre s off c = Acted c' off' ->
  walk g false start (S hops) (pre ++ ext) s off c = Acted c' off' /\ off' <= off + N.of_nat (length pre).
Proof.
  induction pre as [|b pre IH]; intros ext s off c c' off' H.
  - (* end of the buffer: the state has no transition at all *)
    cbn [walk app] in *. rewrite at_eoi_partial in H.
    destruct (gfind g s) as [st|] eqn:Est; [|discriminate].
    destruct (partial_mode_test st) eqn:Ep; [discriminate|].
    destruct ((s =? g_root g)%positive && (off =? start)) eqn:Er; [discriminate|].
    destruct (partial_mode_test_false st Ep) as [Eed Eeoi].
    split; [|injection H as _ <-; lia].
    destruct ext as [|x ext]; cbn [walk at_eoi]; rewrite Est.
    + rewrite andb_false_r, Er, Eeoi. exact H.
    + rewrite Eed. exact H.
  - cbn [app walk length] in *. destruct (gfind g s) as [st|]; [|discriminate].
    destruct (edge_first (g_edges st) b) as [t|].
    + destruct (IH ext _ _ _ _ _ H) as [Hw Hle]. split; [exact Hw|lia].
    + split; [exact H|injection H as _ <-; lia].
Qed.

Lemma attempt_partial_empty g start : forall c off, attempt_ref g true start [] <> Acted c off.
Proof.
  intros c off. unfold attempt_ref. cbn [walk]. rewrite at_eoi_partial, Pos.eqb_refl, N.eqb_refl.
  destruct (gfind g (g_root g)) as [st|]; [|discriminate]. destruct (partial_mode_test st); discriminate.
Qed.

Section Safe.
  Variable g : graph.
  Variable act : leaf -> N -> N -> action * N.
  Variables fbp fbw : N -> N.          (* find_boundary of the prefix and of the whole input *)
  Variable w : list byte.
  Variable k : nat.
  Hypothesis Hk : (k <= length w)%nat.
  (* the two sources agree on boundaries inside the prefix (identity for bytes; for str both are
     valid UTF-8, so the split point is a boundary of the whole input) *)
  Hypothesis Hfb : forall i, i <= N.of_nat k -> fbp i = fbw i.

  Lemma attempt_prefix start c off :
    attempt_ref g true start (skipn (N.to_nat start) (firstn k w)) = Acted c off ->
    attempt_ref g false start (skipn (N.to_nat start) w) = Acted c off /\ start < N.of_nat k /\ off <= N.of_nat k.
  Proof.
    intros H. pose proof (firstn_length_le w Hk) as Ek. assert (Hs : start < N.of_nat k).
    { apply N.lt_nge. intros Hge. rewrite skipn_all2 in H by lia. exact (attempt_partial_empty g start c off H). }
    unfold attempt_ref, hops_of in *.
    (* w from start on is the prefix from start on, then more *)
    rewrite <- (firstn_skipn k w), skipn_app.
    eapply walk_prefix in H as [Hw Hle]. split; [exact Hw|].
    rewrite skipn_length, Ek in Hle. split; [exact Hs|lia].
  Qed.

  Lemma turn_prefix start t : turn (attempt_ref g) act fbp (firstn k w) true start = t ->
    t <> inr (Finished start start) -> t <> inr Broken -> turn (attempt_ref g) act fbw w false start = t.
  Proof.
    intros <-. unfold turn.
    destruct (attempt_ref g true start (skipn (N.to_nat start) (firstn k w))) as [c off|r| |] eqn:Ea; [|congruence..].
    intros _ _. destruct (attempt_prefix start c off Ea) as [-> [Hs Hoff]]. destruct c as [[l e]|]; [reflexivity|].
    (* error item: the boundary search stays inside the prefix *)
    rewrite Hfb; [reflexivity|exact (proj2 (nmax_bounds off start _ Hoff Hs))].
  Qed.

  Lemma skips_prefix start sk s :
    Skips (attempt_ref g) act fbp (firstn k w) true start sk s -> Skips (attempt_ref g) act fbw w false start sk s.
  Proof.
    induction 1 as [s|start l e sk s Ht _ IH]; [constructor|].
    apply skips_cons; [apply (turn_prefix start _ Ht); discriminate|exact IH].
  Qed.

  Theorem next_prefix_safe fuel fuel' start sk it e :
    (fuel <= fuel')%nat ->
    next_from (attempt_ref g) act fbp (firstn k w) true fuel start = (sk, Yield it e) ->
    next_from (attempt_ref g) act fbw w false fuel' start = (sk, Yield it e).
  Proof.
    intros Hf H. destruct (next_from_inv _ _ _ _ _ _ _ _ _ H) as [s [Hs [Ht Hl]]]; [discriminate|].
    apply (next_from_run _ _ _ _ _ start sk s _ fuel' (skips_prefix _ _ _ Hs)); [|lia].
    apply (turn_prefix s _ Ht); discriminate.
  Qed.

  Lemma next_none_skips fuel start sk s e :
    next_from (attempt_ref g) act fbp (firstn k w) true fuel start = (sk, Finished s e) ->
    Skips (attempt_ref g) act fbw w false start sk s /\ (length sk < fuel)%nat.
  Proof.
    intros H. destruct (next_from_finished _ _ _ _ _ _ _ _ _ _ H) as [Hs [_ Hl]].
    exact (conj (skips_prefix _ _ _ Hs) Hl).
  Qed.

  (* the fuel F3 left for the rest is some positive amount up to F2: what lex_from_mono needs to bring it back to any
     larger fuel (chunked_eq_oneshot) *)
  Theorem lex_prefix_stream : forall F1 F2 start rs s rs2 fin2,
    lex_from (attempt_ref g) act fbp (firstn k w) true F1 start = (rs, Finished s s) ->
    lex_from (attempt_ref g) act fbw w false F2 start = (rs2, fin2) -> fin2 <> Broken ->
    exists rs3 F3, (0 < F3 <= F2)%nat /\ rs2 = rs ++ rs3 /\
      lex_from (attempt_ref g) act fbw w false F3 s = (rs3, fin2).
  Proof.
    induction F1 as [|F1 IH]; intros F2 start rs s rs2 fin2 H1 H2 Hnb; [discriminate|].
    destruct F2 as [|F2]; [injection H2 as _ <-; congruence|].
    cbn [lex_from] in H1. rewrite (firstn_length_le w Hk) in H1.
    destruct (next_from (attempt_ref g) act fbp (firstn k w) true (S k) start) as [sk o] eqn:En.
    destruct o as [it e|a b|]; [| |discriminate].
    - (* an item: the one-shot lexer yields the same *)
      cbn [lex_from] in H2.
      rewrite (next_prefix_safe (S k) (S (length w)) start sk it e (le_n_S _ _ Hk) En) in H2.
      destruct (lex_from (attempt_ref g) act fbp (firstn k w) true F1 e) as [rs1 fin1] eqn:E1.
      destruct (lex_from (attempt_ref g) act fbw w false F2 e) as [rs2' fin2'] eqn:E2.
      injection H1 as <- ->. injection H2 as <- <-.
      destruct (IH F2 e rs1 s rs2' fin2' E1 E2 Hnb) as [rs3 [F3 [HF3 [-> HL]]]].
      exists rs3, F3. split; [lia|]. split; [|exact HL]. rewrite <- app_assoc. reflexivity.
    - (* None: what was skipped is a run of skips of the one-shot lexer, which goes on from s *)
      injection H1 as <- <- _. destruct (next_none_skips _ _ _ _ _ En) as [Hs _].
      destruct (lex_from_skips (attempt_ref g) act fbw w false start sk a Hs F2 rs2 fin2 H2 Hnb) as [rs3 [-> HL]].
      exists rs3, (S F2). split; [lia|]. split; [reflexivity|exact HL].
  Qed.
End Safe.
