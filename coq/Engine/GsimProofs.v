(* Engine/GsimProofs.v — soundness of the graph bisimulation checker [gsim_ok] of Engine/GraphBuild.v:
   two graphs related by a checked relation give the same result for every walk of the generated
   code (either mode, any hop fuel).  This carries the correctness of the modelled construction
   [build d] over to the graph that the real Graph::new produced (de-duplicated and renumbered),
   whenever the checker accepts the pair. *)
From Coq Require Import List Arith NArith Bool Lia.
From LogosV Require Import Engine.Model Engine.Cert Engine.GraphBuild Engine.CertProofs Engine.BuildProofs.
Import ListNotations.
Local Open Scope N_scope.

Definition StatesRel (g1 g2 : graph) (Rel : sid -> sid -> Prop) (s1 s2 : sid) : Prop :=
  exists a b, gfind g1 s1 = Some a /\ gfind g2 s2 = Some b /\
    (forall off c, record a off c = record b off c) /\
    partial_mode_test a = partial_mode_test b /\
    (forall x, byte_ok x -> match edge_first (g_edges a) x, edge_first (g_edges b) x with
                            | Some t1, Some t2 => Rel t1 t2
                            | None, None => True
                            | _, _ => False end) /\
    match g_eoi a, g_eoi b with
    | Some t1, Some t2 => Rel t1 t2
    | None, None => True
    | _, _ => False end.

Definition map_stop (tr : ctx -> ctx) (r : stop) : stop :=
  match r with Acted c o => Acted (tr c) o | x => x end.

Lemma map_stop_id r : map_stop (fun c => c) r = r.
Proof. destruct r; reflexivity. Qed.

(* The one bisimulation argument, up to a translation [tr] of the recorded context.  StatesRel is the case
   tr = identity with both states present; a translation of the leaf numbers (Engine/Rename.v) is the case
   Rel = equality. *)
Section Bisim.
  Variables (g1 g2 : graph) (Rel : sid -> sid -> Prop) (tr : ctx -> ctx).

  Definition OptRel (o1 o2 : option sid) : Prop :=
    match o1, o2 with Some t1, Some t2 => Rel t1 t2 | None, None => True | _, _ => False end.

  Definition StepRel (s1 s2 : sid) : Prop :=
    match gfind g1 s1, gfind g2 s2 with
    | Some a, Some b =>
        (forall off c, record a off (tr c) = tr (record b off c)) /\
        partial_mode_test a = partial_mode_test b /\
        (forall x, byte_ok x -> OptRel (edge_first (g_edges a) x) (edge_first (g_edges b) x)) /\
        OptRel (g_eoi a) (g_eoi b)
    | None, None => True
    | _, _ => False
    end.

  Hypothesis Hrel : forall s1 s2, Rel s1 s2 -> StepRel s1 s2.

  Lemma root_test_eq s1 s2 off start : (off = start -> s1 = g_root g1 /\ s2 = g_root g2) ->
    (s1 =? g_root g1)%positive && (off =? start) = (s2 =? g_root g2)%positive && (off =? start).
  Proof.
    intros Hroot. destruct (N.eqb_spec off start) as [E|E]; [|rewrite !andb_false_r; reflexivity].
    destruct (Hroot E) as [-> ->]. rewrite !Pos.eqb_refl. reflexivity.
  Qed.

  Lemma bisim_at_eoi isprefix start : forall hops s1 s2 off c,
    Rel s1 s2 -> (off = start -> s1 = g_root g1 /\ s2 = g_root g2) -> start <= off ->
    at_eoi g1 isprefix start hops s1 off (tr c) = map_stop tr (at_eoi g2 isprefix start hops s2 off c).
  Proof.
    (* the hop fuel is looked at only where the block follows an EOI edge *)
    intros hops. induction hops as [hops IH] using lt_wf_ind. intros s1 s2 off c HR Hroot Hle.
    rewrite !at_eoi_eq. pose proof (Hrel s1 s2 HR) as H. unfold StepRel in H.
    destruct (gfind g1 s1) as [a|], (gfind g2 s2) as [b|]; [|contradiction|contradiction|reflexivity].
    destruct H as [Hrec [Hpm [_ Heoi]]]. cbn zeta. rewrite Hrec, Hpm, (root_test_eq s1 s2 off start Hroot).
    destruct (partial_mode_test b && isprefix); [reflexivity|].
    destruct ((s2 =? g_root g2)%positive && (off =? start)); [reflexivity|].
    unfold OptRel in Heoi. destruct (g_eoi a) as [t1|], (g_eoi b) as [t2|]; [|contradiction|contradiction|reflexivity].
    destruct hops as [|h]; [reflexivity|]. apply IH; [lia|exact Heoi|intros E; lia|lia].
  Qed.

  Theorem bisim_walk isprefix start hops : forall rest s1 s2 off c,
    bytes_ok rest -> Rel s1 s2 -> (off = start -> s1 = g_root g1 /\ s2 = g_root g2) -> start <= off ->
    walk g1 isprefix start hops rest s1 off (tr c) = map_stop tr (walk g2 isprefix start hops rest s2 off c).
  Proof.
    induction rest as [|x rest IH]; intros s1 s2 off c Hw HR Hroot Hle; cbn [walk].
    - apply bisim_at_eoi; assumption.
    - apply Forall_cons_iff in Hw as [Hx Hw']. pose proof (Hrel s1 s2 HR) as H. unfold StepRel in H.
      destruct (gfind g1 s1) as [a|], (gfind g2 s2) as [b|]; [|contradiction|contradiction|reflexivity].
      destruct H as [Hrec [_ [Hedges _]]]. rewrite Hrec. specialize (Hedges x Hx). unfold OptRel in Hedges.
      destruct (edge_first (g_edges a) x) as [t1|], (edge_first (g_edges b) x) as [t2|]; [|contradiction|contradiction|reflexivity].
      apply IH; [exact Hw'|exact Hedges|intros E; lia|lia].
  Qed.

  Corollary bisim_attempt isprefix start hops rest : Rel (g_root g1) (g_root g2) -> bytes_ok rest ->
    walk g1 isprefix start hops rest (g_root g1) start (tr None)
    = map_stop tr (walk g2 isprefix start hops rest (g_root g2) start None).
  Proof. intros Hroot Hw. apply bisim_walk; [exact Hw|exact Hroot|intros _; split; reflexivity|lia]. Qed.
End Bisim.

Lemma states_step g1 g2 Rel s1 s2 : StatesRel g1 g2 Rel s1 s2 -> StepRel g1 g2 Rel (fun c => c) s1 s2.
Proof. intros [a [b [Ea [Eb Hab]]]]. unfold StepRel. rewrite Ea, Eb. exact Hab. Qed.

Section GsimAbs.
  Variables (g1 g2 : graph) (Rel : sid -> sid -> Prop).
  Hypothesis Hrel : forall s1 s2, Rel s1 s2 -> StatesRel g1 g2 Rel s1 s2.

  Theorem rel_attempt isprefix start hops rest : Rel (g_root g1) (g_root g2) -> bytes_ok rest ->
    walk g1 isprefix start hops rest (g_root g1) start None = walk g2 isprefix start hops rest (g_root g2) start None.
  Proof.
    intros Hroot Hw. rewrite <- (map_stop_id (walk g2 isprefix start hops rest (g_root g2) start None)).
    apply (bisim_attempt g1 g2 Rel (fun c => c)); [|exact Hroot|exact Hw].
    intros s1 s2 H. apply states_step, Hrel, H.
  Qed.
End GsimAbs.

Lemma record_eq a b : leaf_eqb (g_early a) (g_early b) = true ->
  is_some (g_early a) || leaf_eqb (g_accept a) (g_accept b) = true -> forall off c, record a off c = record b off c.
Proof.
  intros He Ha off c. unfold record. apply leaf_eqb_eq in He. rewrite <- He.
  destruct (g_early a); [reflexivity|]. apply leaf_eqb_eq in Ha. rewrite Ha. reflexivity.
Qed.

Lemma opt_inV_true R (o1 o2 : option sid) :
  match o1, o2 with Some t1, Some t2 => inV R t1 t2 | None, None => true | _, _ => false end = true ->
  OptRel (paired R) o1 o2.
Proof. destruct o1, o2; intros H; [exact H|discriminate H|discriminate H|exact I]. Qed.

Section Gsim.
  Variables (g1 g2 : graph) (R : pairing).
  Hypothesis Hok : gsim_ok g1 g2 R = true.

  Lemma gsim_ok_spec : inV R (g_root g1) (g_root g2) = true /\
    forall s1 s2, inV R s1 s2 = true -> gsim_pair g1 g2 R s1 s2 = true.
  Proof.
    unfold gsim_ok in Hok. apply andb_prop in Hok as [H1 H2].
    exact (conj H1 (fun s1 s2 => forallb_inV _ R s1 s2 H2)).
  Qed.

  Lemma gsim_states s1 s2 : inV R s1 s2 = true -> StatesRel g1 g2 (paired R) s1 s2.
  Proof.
    intros H. generalize (proj2 gsim_ok_spec s1 s2 H). unfold gsim_pair.
    destruct (gfind g1 s1) as [a|] eqn:Ea; [|discriminate]. destruct (gfind g2 s2) as [b|] eqn:Eb; [|discriminate].
    intros P. apply andb_prop in P as [P Peoi]. apply andb_prop in P as [P Pedges]. apply andb_prop in P as [P Ppm].
    apply andb_prop in P as [Pearly Pacc].
    exists a, b. split; [exact Ea|]. split; [exact Eb|]. split; [exact (record_eq a b Pearly Pacc)|].
    split; [apply eqb_prop; exact Ppm|]. split; [|exact (opt_inV_true R _ _ Peoi)].
    intros x Hx. exact (opt_inV_true R _ _ (proj1 (forallb_bytes _) Pedges x Hx)).
  Qed.

  Theorem gsim_attempt isprefix start hops rest : bytes_ok rest ->
    walk g1 isprefix start hops rest (g_root g1) start None = walk g2 isprefix start hops rest (g_root g2) start None.
  Proof.
    intros Hw. exact (rel_attempt g1 g2 (paired R) gsim_states isprefix start hops rest (proj1 gsim_ok_spec) Hw).
  Qed.
End Gsim.

(* The graph g produced by the real Graph::new, when the checker relates it to the modelled
   construction on the same raw DFA: its match attempt computes the DFA-level scan. *)
Theorem built_graph_correct d g R :
  build_side d = true -> gsim_ok (build d) g R = true ->
  forall start rest, bytes_ok rest -> rest <> [] ->
  exists off, attempt_ref g false start rest = Acted (scan d (d_start d) rest start None) off.
Proof.
  intros Hside Hsim start rest Hw Hne.
  unfold attempt_ref. rewrite <- (gsim_attempt (build d) g R Hsim false start (hops_of g) rest Hw).
  exact (build_walk_correct d Hside start _ rest Hw Hne).
Qed.
